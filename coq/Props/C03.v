(* C03 — query results do not depend on flush timing or on where data currently lives. *)
From Coq Require Import Lia.
From Zeno Require Import Base Sort Expr ExprSpec ExprP Seq Store StoreExprP DB.
From Zeno Require Pin PinP PinSrc Facts TiePin.
From Zeno Require Tree TreeP.
From Zeno Require TieTree.
From Zeno Require RowCodec RowCodecP TieRow.
From Zeno Require CorrRow.
Local Open Scope Z_scope.

(* two histories with the same inserts in the same order, split between memory and disk by ANY flushes
   (timed, forced, raw pass-through or re-encoding/truncating), read the same for every key and period *)
Theorem C03_schedule_independent : forall e res H evs1 evs2 tbq k t,
  0 < res -> Forall (ev_ok res H) evs1 -> Forall (ev_ok res H) evs2 -> 0 <= tbq -> tbq + res <= H -> H <= t -> 0 < t ->
  map (fun x => match x with EIns k ts _ p => Some (k, ts, p) | EFlush _ _ => None end) (filter is_ins evs1)
  = map (fun x => match x with EIns k ts _ p => Some (k, ts, p) | EFlush _ _ => None end) (filter is_ins evs2) ->
  read e res tbq evs1 k t = read e res tbq evs2 k t.
Proof. exact flush_schedule_irrelevant. Qed.

(* immediately after a completed flush a disk-only reader equals the memstore-inclusive one *)
Theorem C03_disk_equals_mem_after_flush : forall e res H evs tb raw tbq k t,
  0 < res -> Forall (ev_ok res H) evs -> ev_ok res H (EFlush tb raw) ->
  0 <= tbq -> tbq + res <= H -> H <= t -> 0 < t ->
  let s := store_of e res (evs ++ [EFlush tb raw]) in
  proj1_sig (match den (scell e) res (merge (scell e) (sc_empty e) (sc_merge e) (lookup key key_eqb (scell e) k (s_file key (scell e) s)) None res tbq) t
             with Some c => c | None => sc_empty e end)
  = read e res tbq (evs ++ [EFlush tb raw]) k t.
Proof. exact disk_only_after_flush. Qed.

(* wherever the data is split, merging the parts gives the state of all points *)
Theorem C03_split_anywhere : forall e pts n,
  Expr.merge e (st e (firstn n pts)) (st e (skipn n pts)) = st e pts.
Proof. intros e pts n. rewrite merge_hom, firstn_skipn. reflexivity. Qed.

(* the reference answer is a function of the inserted points only *)
Theorem C03_reads_accumulated_state : forall e res H evs tbq k t,
  0 < res -> Forall (ev_ok res H) evs -> 0 <= tbq -> tbq + res <= H -> H <= t -> 0 < t ->
  read e res tbq evs k t = st e (points_of res k t evs).
Proof. exact store_reads_accumulated_state. Qed.

(* scans running while the row store flushes and removes old files (Model/Pin.v), with rowStore.iterate structured
   as row_store.go has it (translated step list): on every schedule of inserts, flushes, scan starts, scan
   continuations and removals of old files, every scan that finishes returned the points [0, n) applied when it
   captured its snapshot - however many flushes moved them to other files meanwhile, whichever files were deleted *)
Theorem C03_scans_unaffected_by_flushes_and_file_removal : forall ops sc from upto,
  In sc (Pin.p_scans (Pin.prun (PinSrc.pins_atomically Facts.gen_iterate_steps) ops)) ->
  Pin.ps_phase sc = Pin.Finished from upto -> from = 0%nat /\ upto = Pin.ps_n sc.
Proof. rewrite TiePin.iterate_pins_atomically. exact PinP.atomic_scans_return_their_snapshot. Qed.

(* ... and the remover's guard (Pin.removable) is the one in row_store.go: it looks readers up under the key scans
   register under (translated: gen_pin_key, gen_remover_key, gen_filestore_names) *)
Theorem C03_remover_sees_scan_registrations : TiePin.reader_keys_agree = true.
Proof. exact TiePin.remover_sees_registrations. Qed.

(* why the structure matters: registering in a critical section of its own (the code as shipped) has a schedule on
   which a scan returns none of the points flushed before it began *)
Theorem C03_separate_registration_refuted :
  forallb Pin.scan_ok (Pin.p_scans (Pin.prun false PinP.lost_file_schedule)) = false.
Proof. exact PinP.nonatomic_refuted. Qed.

Example C03_nonvacuous :
  let e := EAvg (EField 1) (EConst 1) in
  let p v := {| p_vals := [(1, v)]; p_md := [] |} in
  let k := [(11, VStr [97])] in
  let a := [EIns k 13 2 (p 5); EIns k 14 2 (p 7); EIns k 13 2 (p 9)] in
  let b := [EIns k 13 2 (p 5); EFlush 2 true; EIns k 14 2 (p 7); EFlush 2 false; EIns k 13 2 (p 9); EFlush 2 true] in
  Forall (ev_ok 2 6) a /\ Forall (ev_ok 2 6) b /\ read e 2 2 a k 14 = read e 2 2 b k 14 /\ read e 2 2 b k 14 = CAvg (Some (3, 21)).
Proof. intros. split; [repeat constructor; cbn; lia|]. split; [repeat constructor; cbn; lia|]. vm_compute. auto. Qed.

(* what fileStore.iterate relies on when it merges a file with the memstore tree: Remove hands back exactly the
   key's data (once per context) and changes neither keys nor data, so the file row is merged with the right
   memstore row whatever the shape of the tree *)
Theorem C03_tree_remove : forall (D:Type) ctx key (t:Tree.tree D), TreeP.wf_tree t ->
  let '(t', o) := Tree.tremove ctx key t in
  TreeP.wf_tree t' /\ TreeP.content t' = TreeP.content t
  /\ o = (if Tree.tremoved ctx key t then None else Tree.tfind key t).
Proof. exact TreeP.tremove_spec. Qed.

(* fileStore.iterate over a file and the memstore tree (Remove every key read from the file, then Walk what is left,
   all in one fresh context): every key of the file is merged with exactly the memstore's data for it, and the Walk
   reports exactly the memstore's other keys, each once — whatever the keys and the shape of the tree *)
Theorem C03_tree_iterate_each_key_once : forall (D:Type) ctx (file_keys:list (list Z)) (t:Tree.tree D),
  ctx <> 0 -> TreeP.wf_tree t -> TreeP.unmarked ctx t -> NoDup file_keys ->
  let '(os, vs) := Tree.iterate_keys ctx file_keys t in
  os = map (fun k => (k, Tree.tfind k t)) file_keys
  /\ NoDup (map fst vs)
  /\ (forall k d, In (k, d) vs <-> (Tree.tfind k t = Some d /\ ~ In k file_keys)).
Proof. exact TreeP.iterate_each_key_once. Qed.
(* the structure of bytetree.go these theorems speak about is the one in /repo on this run *)
Theorem C03_tree_source_as_modelled : TieTree.tree_source_as_modelled.
Proof. exact TieTree.tree_source_as_modelled_holds. Qed.

(* what a flush writes for a row is what a scan of the file reads back (Model/RowCodec.v: rowLength, key length, key,
   column count, column lengths, columns), and the scan is left at the start of the next row — for every key shorter
   than 2^16 bytes, fewer than 2^16 columns and columns shorter than 2^64 bytes; the format is the one doWrite uses on this run *)
Theorem C03_row_written_is_row_read : forall key cols after, RowCodecP.fits key cols ->
  RowCodec.decode_row (RowCodec.encode_row key cols ++ after) = Some (key, cols, after).
Proof. exact RowCodecP.row_roundtrip. Qed.
Theorem C03_row_format_as_modelled : TieRow.row_format_as_modelled.
Proof. exact TieRow.row_format_as_modelled_holds. Qed.

(* non-vacuity: a file with three keys (one of them absent from memory, one the empty key) merged with a memstore tree of
   four keys — every key of either side comes out exactly once *)
Example C03_tree_iterate_nonvacuous :
  let add v := fun o : option Z => match o with Some c => c + v | None => v end in
  let t := TreeP.built [([97; 98; 99], add 1); ([97; 98], add 2); ([], add 4); ([98], add 8)] in
  TreeP.wf_tree t /\ TreeP.unmarked 7 t
  /\ Tree.iterate_keys 7 [[97; 98]; [120]; []] t
      = ([([97; 98], Some 2); ([120], None); ([], Some 4)], [([97; 98; 99], 1); ([98], 8)]).
Proof.
  intros. split; [apply TreeP.built_wf|]. split; [|vm_compute; reflexivity].
  unfold TreeP.unmarked. apply Forall_forall. vm_compute. repeat constructor.
Qed.
(* non-vacuity of the row format theorem: a row with an empty column, followed by the start of the next row *)
Example C03_row_nonvacuous :
  RowCodecP.fits [1; 2; 3] [[7; 8]; []; [9]]
  /\ RowCodec.decode_row (RowCodec.encode_row [1; 2; 3] [[7; 8]; []; [9]] ++ [42]) = Some ([1; 2; 3], [[7; 8]; []; [9]], [42]).
Proof. exact RowCodecP.row_roundtrip_nonvacuous. Qed.

(* a whole file: the rows a flush writes one after the other are the rows a scan reads, in order, to the end of the file
   (with the reader and the fuel the correspondence stage rowfile runs on real files) *)
Theorem C03_file_written_is_file_read : forall rows : list (list Z * list (list Z)),
  Forall (fun r => RowCodecP.fits (fst r) (snd r)) rows ->
  CorrRow.decode_all (S (length (RowCodecP.encode_rows rows))) (RowCodecP.encode_rows rows) = Some rows.
Proof. exact RowCodecP.file_roundtrip. Qed.

Print Assumptions C03_schedule_independent.
Print Assumptions C03_disk_equals_mem_after_flush.
Print Assumptions C03_split_anywhere.
Print Assumptions C03_reads_accumulated_state.
Print Assumptions C03_scans_unaffected_by_flushes_and_file_removal.
Print Assumptions C03_separate_registration_refuted.
Print Assumptions C03_remover_sees_scan_registrations.
Print Assumptions C03_tree_remove.
Print Assumptions C03_tree_iterate_each_key_once.
Print Assumptions C03_tree_source_as_modelled.
Print Assumptions C03_row_written_is_row_read.
Print Assumptions C03_row_format_as_modelled.
Print Assumptions C03_file_written_is_file_read.
