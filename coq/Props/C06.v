(* C06 — coarser grouping (fewer dims, longer period) re-aggregates without loss or overlap. *)
From Coq Require Import QArith.
From Zeno Require Import Base Sort Expr ExprSpec ExprP DB DBP.
Local Open Scope Z_scope.

(* a native period end t lies in exactly one output period (T-P, T], anchored at until *)
Theorem C06_out_period : forall u p t, 0 < p -> t <= u ->
  let T := out_bucket u p t in T - p < t <= T /\ T <= u /\ exists n, 0 <= n /\ T = u - n * p.
Proof. exact out_bucket_spec. Qed.
Theorem C06_periods_disjoint : forall u p t T n, 0 < p -> t <= u -> 0 <= n -> T = u - n * p -> T - p < t <= T ->
  T = out_bucket u p t.
Proof. exact out_bucket_unique. Qed.

(* every accepted in-window point contributes to exactly one output row; the row is built from exactly those points *)
Theorem C06_row_points_exact : forall T q pts k t,
  glookup k t (groups T q pts) = map tp_pt (filter (contributes_to T q k t) pts).
Proof. exact groups_lookup. Qed.
Theorem C06_one_row_per_key_period : forall T q pts, NoDup (map fst (groups T q pts)).
Proof. exact groups_distinct. Qed.

(* re-aggregating partial states (fine periods, several keys) = aggregating the raw points; ratios such as AVG
   are recomputed from their merged components *)
Theorem C06_reaggregation : forall e A B, get e (Expr.merge e (st e A) (st e B)) = ref e (A ++ B).
Proof. intros e A B. rewrite merge_hom. apply get_ref. Qed.

Example C06_nonvacuous :
  let e := EAvg (EField 1) (EConst 1) in
  let p v := {| p_vals := [(1, v)]; p_md := [] |} in
  (* AVG over two fine periods holding {1,2,3} and {10}: 16/4, not the average of the averages (2+10)/2 *)
  Qeq_bool (fst (get e (Expr.merge e (st e [p 1; p 2; p 3]) (st e [p 10])))) (4 # 1) = true.
Proof. vm_compute. reflexivity. Qed.

Print Assumptions C06_out_period.
Print Assumptions C06_periods_disjoint.
Print Assumptions C06_row_points_exact.
Print Assumptions C06_one_row_per_key_period.
Print Assumptions C06_reaggregation.
