(* C12 — replication is exactly-once per partition across restarts and reconnects. *)
From Coq Require Import List Sorting.Permutation.
From Zeno Require Import Repl ReplP.
From Zeno Require Offsets OffsetsP.
Import ListNotations.

(* For every history of inserts, leader reads, deliveries, joins, flushes, clean stops, kills, restarts, directory
   snapshots and restores, link cuts and leader restarts — under the one precondition the follower's start-up code
   must establish (run_ok: the EarliestOffset it announces is not after what the table persisted) — once all nodes
   are up and caught up every follower holds exactly the accepted entries routed to its partition (and passing the
   table's WHERE), each once, in WAL order. *)
Theorem C12_follower_content : forall parts ops, run_ok (init parts) ops = true ->
  let s := run (init parts) ops in quiescent s = true ->
  forall i f, nth_error (s_fols s) i = Some f -> content f = relevant (f_part f) (s_log s).
Proof. exact follower_content. Qed.

Theorem C12_exactly_once : forall parts ops, run_ok (init parts) ops = true ->
  let s := run (init parts) ops in quiescent s = true ->
  forall i f, nth_error (s_fols s) i = Some f ->
    NoDup (content f) /\
    (forall off, In off (content f) <-> (1 <= off <= length (s_log s) /\ relevant_b (f_part f) (nth (off - 1) (s_log s) dentry) = true)).
Proof. exact exactly_once. Qed.

(* redundant followers of one partition converge to identical contents *)
Theorem C12_redundant_converge : forall parts ops, run_ok (init parts) ops = true ->
  let s := run (init parts) ops in quiescent s = true ->
  forall i j f g, nth_error (s_fols s) i = Some f -> nth_error (s_fols s) j = Some g -> f_part f = f_part g ->
    content f = content g.
Proof. exact redundant_converge. Qed.

(* several leaders: per-source offsets make the leaders independent; the same holds for each source *)
Theorem C12_multi_leader : forall nsrc parts ms, mrun_ok (minit nsrc parts) ms = true ->
  forall s, In s (mrun (minit nsrc parts) ms) -> quiescent s = true ->
  forall i f, nth_error (s_fols s) i = Some f -> content f = relevant (f_part f) (s_log s).
Proof. exact multi_source. Qed.

(* the partitions together hold every accepted entry that passes the table's WHERE, once: with C10_union_is_all and
   C10_cluster_value_equals_standalone (re-merging any split gives the standalone value) cluster queries again equal
   a standalone database fed the same points *)
Theorem C12_partitions_cover : forall P log, (forall e, In e log -> e_part e < P) ->
  Permutation (concat (map (fun p => relevant p log) (seq 0 P))) (passing log).
Proof. exact partitions_cover. Qed.

(* the hypothesis "all nodes up and caught up" is reachable from every reachable state with the nodes up: the fair
   schedule [settle] gets there (and it is the schedule the correspondence check drives the model with) *)
Theorem C12_caught_up_is_reachable : forall parts ops, run_ok (init parts) ops = true -> let s := run (init parts) ops in
  s_lup s = true -> forallb quiet_f (s_fols s) = true -> quiescent (settle s) = true.
Proof. exact settle_quiescent. Qed.
Theorem C12_settled_content : forall parts ops, run_ok (init parts) ops = true ->
  let s := settle (run (init parts) ops) in quiescent s = true ->
  forall i f, nth_error (s_fols s) i = Some f -> content f = relevant (f_part f) (s_log s).
Proof. exact follower_content_settled. Qed.

(* the precondition is needed: a follower announcing a later EarliestOffset than its table persisted loses entries *)
Theorem C12_precondition_needed : exists parts ops,
  let s := run (init parts) ops in quiescent s = true /\
  exists f, nth_error (s_fols s) 0 = Some f /\ content f <> relevant (f_part f) (s_log s).
Proof. exact earliest_guard_needed. Qed.

(* non-vacuity *)
Theorem C12_nonvacuous : exists parts ops, run_ok (init parts) ops = true /\
  let s := settle (run (init parts) ops) in quiescent s = true /\ exists f, nth_error (s_fols s) 0 = Some f /\ 3 <= length (content f).
Proof. exact nonvacuous. Qed.

(* the per-source offsets a follower announces and a leader resumes from are combined by
   common.OffsetsBySource.Advance (Model/Offsets.v): source by source the later of the two offsets, so no offset ever moves
   backwards, whichever operand is nil, and the order of combination does not matter to any reader *)
Theorem C12_offsets_advance : forall s a b, OffsetsP.wf_obs b -> OffsetsP.nonneg a -> OffsetsP.nonneg b ->
  Offsets.olook s (Offsets.advance a b) = Offsets.off_max (Offsets.olook s a) (Offsets.olook s b).
Proof. exact OffsetsP.advance_read. Qed.
Theorem C12_offsets_never_move_backwards : forall s a b, OffsetsP.wf_obs b -> OffsetsP.nonneg a -> OffsetsP.nonneg b ->
  OffsetsP.off_le (Offsets.olook s a) (Offsets.olook s (Offsets.advance a b))
  /\ OffsetsP.off_le (Offsets.olook s b) (Offsets.olook s (Offsets.advance a b)).
Proof. exact OffsetsP.advance_ge. Qed.

Example C12_offsets_nonvacuous : OffsetsP.offsets_example_statement.
Proof. exact OffsetsP.offsets_example. Qed.

Print Assumptions C12_follower_content.
Print Assumptions C12_exactly_once.
Print Assumptions C12_redundant_converge.
Print Assumptions C12_multi_leader.
Print Assumptions C12_partitions_cover.
Print Assumptions C12_caught_up_is_reachable.
Print Assumptions C12_settled_content.
Print Assumptions C12_precondition_needed.
Print Assumptions C12_nonvacuous.
Print Assumptions C12_offsets_advance.
Print Assumptions C12_offsets_never_move_backwards.
