(* C10 — a partitioned cluster answers every query like a standalone database. *)
From Coq Require Import Sorting.Permutation.
From Zeno Require Import Base Sort Expr ExprSpec ExprP DB DBP Cluster ClusterP.
Local Open Scope Z_scope.

(* every accepted point is applied by exactly one partition, whatever the partition keys, the number of
   partitions and the hash function *)
Theorem C10_exactly_one_partition : forall (hash:key -> Z) keys P dims, 0 < P ->
  exists! p, 0 <= p < P /\ leader_offers hash keys P dims p = true.
Proof. exact exactly_one_partition. Qed.
Theorem C10_leader_follower_agree : forall (hash:key -> Z) keys P dims p,
  leader_offers hash keys P dims p = follower_accepts hash keys P dims p.
Proof. exact leader_follower_agree. Qed.
Theorem C10_routing_by_key_values : forall (hash:key -> Z) keys P d1 d2,
  part_input keys d1 = part_input keys d2 -> partition_for hash keys P d1 = partition_for hash keys P d2.
Proof. exact same_key_values_same_partition. Qed.

(* the union of what the partitions hold is everything: re-merging the partitions' partial states gives the state,
   and hence the value, of all points — for every split *)
Theorem C10_union_is_all : forall e parts all, Permutation all (concat parts) -> remerge e parts = st e all.
Proof. exact remerge_sound. Qed.
Theorem C10_cluster_value_equals_standalone : forall e parts all, Permutation all (concat parts) ->
  get e (remerge e parts) = ref e all.
Proof. exact remerge_value. Qed.

(* when output groups are confined to partitions, the partition that holds a group holds all of it, the others
   none of it: the union of the partitions' rows is the standalone result *)
Theorem C10_pushdown_union : forall T q route pts k t p, confined T q route pts ->
  glookup k t (groups T q (routed_to route p pts)) = glookup k t (groups T q pts)
  \/ glookup k t (groups T q (routed_to route p pts)) = [].
Proof. exact pushdown_sound. Qed.
Theorem C10_pushdown_nothing_lost : forall T q route pts k t x, confined T q route pts ->
  In x pts -> contributes_to T q k t x = true ->
  glookup k t (groups T q (routed_to route (route x) pts)) = glookup k t (groups T q pts).
Proof. exact pushdown_complete. Qed.

Print Assumptions C10_exactly_one_partition.
Print Assumptions C10_leader_follower_agree.
Print Assumptions C10_routing_by_key_values.
Print Assumptions C10_union_is_all.
Print Assumptions C10_cluster_value_equals_standalone.
Print Assumptions C10_pushdown_union.
Print Assumptions C10_pushdown_nothing_lost.
