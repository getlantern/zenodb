(* C07 — ASOF/UNTIL return exactly the periods inside the requested time window. *)
From Zeno Require Import Base Sort Expr ExprSpec Seq SeqP DB DBP.
Local Open Scope Z_scope.

(* a point contributes only if its native period lies in (asOf', until'], and then to the output period containing it *)
Theorem C07_inside_window : forall T q p k t, contributes T q p = Some (k, t) -> needs_group T q = true ->
  0 < q_period' T q -> bucket (t_res T) (tp_ts p) <= q_until' T q ->
  q_asof' T q < bucket (t_res T) (tp_ts p) <= q_until' T q /\
  t - q_period' T q < bucket (t_res T) (tp_ts p) <= t /\ t <= q_until' T q.
Proof. exact contributes_window. Qed.

(* no period that ends at or before asOf' or after until' contributes *)
Theorem C07_nothing_outside : forall T q p, needs_group T q = true ->
  (bucket (t_res T) (tp_ts p) <= q_asof' T q \/ q_until' T q < bucket (t_res T) (tp_ts p)) ->
  contributes T q p = None.
Proof. exact outside_window_no_contribution. Qed.

(* the mechanism: restricting a stored series keeps exactly the periods in (asOf, until], values unchanged *)
Theorem C07_truncate : forall (cell:Type) (s:seq cell) res asOf until t, 0 < res ->
  (asOf = 0 \/ res <= asOf) -> (until = 0 \/ res <= until) -> (forall u cs, s = Some (u, cs) -> res <= u) ->
  den cell res (truncate cell s res asOf until) t =
  if ((asOf =? 0) || (asOf <? t)) && ((until =? 0) || (t <=? until)) then den cell res s t else None.
Proof. exact truncate_den. Qed.

(* without a range the window is (now - retention, now], rounded to the resolution *)
Theorem C07_default_window : forall T q, q_asof q = 0 -> q_until q = 0 ->
  q_until' T q = round_up (q_now q) (t_res T) /\
  q_asof0 T q = round_up (round_up (q_now q) (t_res T) - t_ret T) (t_res T).
Proof. intros T q Ha Hu. unfold q_until', q_asof0, tbl_asof, tbl_until. rewrite Ha, Hu. cbn. split; reflexivity. Qed.

Example C07_nonvacuous :
  let T := {| t_fields := [(0, EAgg SUM (EField 9))]; t_groupby := None; t_res := 2; t_ret := 100; t_where := None |} in
  let q := {| q_fields := None; q_groupby := None; q_period := 0; q_asof := 5; q_until := 9; q_where := None; q_now := 20; q_vis := None; q_limit := None |} in
  let p ts := {| tp_ts := ts; tp_dims := []; tp_pt := {| p_vals := [(9, 1)]; p_md := [] |}; tp_flags := [] |} in
  map o_ts (spec_rows T q [p 3; p 6; p 7; p 8; p 10; p 11]) = [8; 10].
Proof. vm_compute. reflexivity. Qed.

Print Assumptions C07_inside_window.
Print Assumptions C07_nothing_outside.
Print Assumptions C07_truncate.
Print Assumptions C07_default_window.
