(* C20 — data crossing the RPC boundary keeps its meaning. *)
From Coq Require Import String.
From Zeno Require Import Base Expr ExprSpec ExprP Codec CodecP Facts.
Local Open Scope string_scope.

(* every expression of the modelled grammar decodes to itself: same tree, hence same text, width,
   Update, Merge, Get and sub-mergers on all inputs *)
Theorem C20_roundtrip : forall e, decode (esize e) (encode e) = Some e.
Proof. exact roundtrip. Qed.
Theorem C20_decoded_behaves_like_original : forall e fuel e', (esize e <= fuel)%nat -> decode fuel (encode e) = Some e' ->
  forall pts, st e' pts = st e pts /\ get e' (st e' pts) = ref e pts /\ width e' = width e.
Proof.
  intros e fuel e' Hf H pts. rewrite (decode_encode e fuel Hf) in H. inversion H; subst.
  split; [reflexivity|]. split; [apply get_ref|reflexivity].
Qed.

(* on the codec table translated from expr/*.go on this run: every registered extension type restores, on
   decoding, every field its behaviour depends on (hand-written decoders rebuild the function fields) *)
Theorem C20_codec_table_complete : forall row, In row gen_codec ->
  forall f, In f (behaviour_fields (fst (snd row))) -> smem f (restored row) = true.
Proof. exact codec_every_type_restores_behaviour. Qed.
Theorem C20_codec_table_types : map (fun r => fst (snd r)) gen_codec =
  ["field"; "constant"; "bounded"; "aggregate"; "ifExpr"; "avg"; "binaryExpr"; "shift"; "unaryMathExpr"; "ptile"; "ptileOptimized"].
Proof. exact codec_table_types. Qed.

Print Assumptions C20_roundtrip.
Print Assumptions C20_decoded_behaves_like_original.
Print Assumptions C20_codec_table_complete.
Print Assumptions C20_codec_table_types.
