(* C13 — incomplete results are never presented as complete. *)
From Zeno Require Import Base Report ReportP.

(* a table scan (file part, then memstore part, the deadline guard checked after every row) that reports no
   error has delivered every row; equivalently, any omission comes with an error — for every deadline,
   including one that is already expired and one that strikes inside the memstore part *)
Theorem C13_scan_no_error_complete : forall (R:Type) (file mem:list R) k d,
  scan R file mem k = (d, false) -> d = file ++ mem.
Proof. exact scan_no_error_complete. Qed.
Theorem C13_scan_omission_is_reported : forall (R:Type) (file mem:list R) k,
  fst (scan R file mem k) <> file ++ mem -> snd (scan R file mem k) = true.
Proof. exact scan_omission_is_reported. Qed.

(* the observed-outcome predicate: complete, or the caller is told (error / missing partition listed / non-200) *)
Theorem C13_outcome_ok_iff : forall c, rep_case_ok c = true <-> complete_of c = true \/ told c = true.
Proof. intros c. unfold rep_case_ok. apply Bool.orb_true_iff. Qed.

Print Assumptions C13_scan_no_error_complete.
Print Assumptions C13_scan_omission_is_reported.
Print Assumptions C13_outcome_ok_iff.
