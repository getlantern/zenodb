(* C04 — queries are read-only: running any query never changes stored data. *)
From Zeno Require Import Base Sort Expr ExprSpec ExprP Seq SeqP Store StoreExprP DB.
Local Open Scope Z_scope.

(* in the row-store model a reader is a function of the state: what any probe finds after an arbitrary
   sequence of reads (with any bounds) is what it finds before them, before and after the next flush *)
Theorem C04_reads_do_not_change_state : forall e res evs (reads:list (Z * key * Z)) tbq k t,
  let st := store_of e res evs in
  let st' := fold_left (fun s r => let _ := content key key_eqb (scell e) (sc_empty e) (sc_merge e) res (fst (fst r)) s (snd (fst r)) (snd r) in s) reads st in
  content key key_eqb (scell e) (sc_empty e) (sc_merge e) res tbq st' k t
  = content key key_eqb (scell e) (sc_empty e) (sc_merge e) res tbq st k t.
Proof.
  intros e res evs reads tbq k t st st'. unfold st'. generalize st.
  induction reads as [|r rs IH]; intros s; [reflexivity|apply IH].
Qed.

(* restricting a series to a query's time range yields exactly the periods inside it with unchanged values;
   the original series is an argument, not a result: at value level it cannot change *)
Theorem C04_truncate_values : forall (cell:Type) (s:seq cell) res asOf until t, 0 < res ->
  (asOf = 0 \/ res <= asOf) -> (until = 0 \/ res <= until) -> (forall u cs, s = Some (u, cs) -> res <= u) ->
  den cell res (truncate cell s res asOf until) t =
  if ((asOf =? 0) || (asOf <? t)) && ((until =? 0) || (t <=? until)) then den cell res s t else None.
Proof. exact truncate_den. Qed.

(* a probe after any flush placement reads the same (from the store refinement) *)
Theorem C04_probe_same_after_flush : forall e res H evs tb raw tbq k t,
  0 < res -> Forall (ev_ok res H) evs -> ev_ok res H (EFlush tb raw) -> 0 <= tbq -> tbq + res <= H -> H <= t -> 0 < t ->
  read e res tbq (evs ++ [EFlush tb raw]) k t = read e res tbq evs k t.
Proof.
  intros e res H evs tb raw tbq k t Hr Hok Hf Hq HqH Ht H0.
  rewrite (store_reads_accumulated_state e res H (evs ++ [EFlush tb raw]) tbq k t), (store_reads_accumulated_state e res H evs tbq k t); auto.
  - rewrite (points_of_inserts res k t (evs ++ _)), filter_app, app_nil_r, <- points_of_inserts. reflexivity.
  - apply Forall_app. split; [exact Hok|constructor; [exact Hf|constructor]].
Qed.

Print Assumptions C04_reads_do_not_change_state.
Print Assumptions C04_truncate_values.
Print Assumptions C04_probe_same_after_flush.
