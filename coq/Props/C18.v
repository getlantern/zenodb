(* C18 — a query observes the table as of a single instant. *)
From Coq Require Import Lia.
From Zeno Require Import Base Alias AliasP.
From Zeno Require Pin PinP PinSrc Facts TiePin.
From Zeno Require Tree TreeP.
From Zeno Require TieTree.

(* whatever the live store does after a scan took its (deep-copied) memstore snapshot — inserts into
   existing periods (in-place writes), into new keys, flushes — every buffer the snapshot points to
   keeps the value it had when the snapshot was taken *)
Theorem C18_snapshot_stable : forall (K:Type) (keqb:K -> K -> bool) (S:Type) (sempty:S) (t:atree K) (h:heap S) ops,
  ids_below K (length h) t ->
  let '(ts, h1) := copy_deep K S sempty (t, h) in
  forall k i, In (k, i) ts ->
  hget S sempty i (snd (fold_left (astep K keqb S sempty) ops (t, h1))) = hget S sempty i h1.
Proof. exact deep_snapshot_stable. Qed.

(* the instant: the scan begun after the operations [pre] holds a snapshot of exactly the points inserted in [pre],
   and - with rowStore.iterate structured as row_store.go has it - whatever [post] does (inserts, flushes, removals
   of old files, other scans), if it finishes it returned exactly those points: none applied later, all applied before *)
Theorem C18_scan_reflects_the_prefix_at_its_start : forall pre post,
  let atomic := PinSrc.pins_atomically Facts.gen_iterate_steps in
  exists sc, nth_error (Pin.p_scans (Pin.prun atomic (pre ++ Pin.PBegin :: post))) (PinP.count_begin pre) = Some sc /\
             Pin.ps_n sc = PinP.count_ins pre /\
             forall from upto, Pin.ps_phase sc = Pin.Finished from upto -> from = 0%nat /\ upto = PinP.count_ins pre.
Proof.
  intros pre post atomic. destruct (PinP.snapshot_is_history_prefix atomic pre post) as [sc [E Hn]].
  exists sc. split; [exact E|]. split; [exact Hn|]. intros from upto Hp. rewrite <- Hn.
  unfold atomic in E. rewrite TiePin.iterate_pins_atomically in E.
  exact (PinP.atomic_scans_return_their_snapshot _ sc from upto (nth_error_In _ _ E) Hp).
Qed.

(* the memstore copy is taken in the critical section that captures the file store (same instant for both halves) *)
Theorem C18_memstore_copied_with_file_store : PinSrc.copies_with_capture Facts.gen_iterate_steps = true.
Proof. exact TiePin.iterate_copies_with_capture. Qed.

Example C18_nonvacuous :
  let t := [(1, 0%nat); (2, 1%nat)] in let h := [10; 20] in
  let '(ts, h1) := copy_deep Z Z 0 (t, h) in
  let later := fold_left (astep Z Z.eqb Z 0) [AIns Z Z 1 (fun v => v + 5); AFlush Z Z; AIns Z Z 3 (fun v => v + 1); AIns Z Z 2 (fun v => v * 2)] (t, h1) in
  ids_below Z (length h) t /\
  map (aread Z Z.eqb Z 0 ts (snd later)) [1; 2; 3] = [Some 10; Some 20; None] /\
  map (aread Z Z.eqb Z 0 t (snd later)) [1; 2] = [Some 15; Some 20].
Proof. vm_compute. split; [intros k i [H|[H|[]]]; inversion H; lia|auto]. Qed.

(* the snapshot a scan takes of the memstore (Tree.Copy) holds exactly the keys and data the tree held at that
   moment, without removal marks, and a Walk of it reports each of them *)
Theorem C18_tree_copy : forall (D:Type) (t:Tree.tree D), TreeP.wf_tree t ->
  TreeP.wf_tree (Tree.tcopy t) /\ TreeP.content (Tree.tcopy t) = TreeP.content t
  /\ (forall key, Tree.tfind key (Tree.tcopy t) = Tree.tfind key t)
  /\ (forall ctx, TreeP.unmarked ctx (Tree.tcopy t)).
Proof. exact TreeP.tcopy_spec. Qed.
Theorem C18_tree_copy_walk : forall (D:Type) ctx keep (t:Tree.tree D), TreeP.wf_tree t ->
  forall k d, In (k, d) (snd (Tree.twalk ctx (fun _ _ => (true, keep)) (Tree.tcopy t))) <-> Tree.tfind k t = Some d.
Proof. exact TreeP.copy_walk. Qed.

Theorem C18_tree_source_as_modelled : TieTree.tree_source_as_modelled.
Proof. exact TieTree.tree_source_as_modelled_holds. Qed.

Example C18_tree_copy_nonvacuous :
  let add v := fun o : option Z => match o with Some c => c + v | None => v end in
  let t := fst (Tree.tremove 3 [97; 98] (TreeP.built [([97; 98; 99], add 1); ([97; 98], add 2); ([], add 4)])) in
  TreeP.wf_tree t
  /\ snd (Tree.twalk 3 (fun _ _ => (true, true)) t) = [([], 4); ([97; 98; 99], 1)]                       (* the live tree has a removal mark *)
  /\ snd (Tree.twalk 3 (fun _ _ => (true, true)) (Tree.tcopy t)) = [([97; 98], 2); ([], 4); ([97; 98; 99], 1)].  (* the copy has none *)
Proof.
  intros add t. split; [apply TreeP.tremove_wf, TreeP.built_wf|vm_compute; split; reflexivity].
Qed.

Print Assumptions C18_snapshot_stable.
Print Assumptions C18_scan_reflects_the_prefix_at_its_start.
Print Assumptions C18_memstore_copied_with_file_store.
Print Assumptions C18_tree_copy.
Print Assumptions C18_tree_copy_walk.
Print Assumptions C18_tree_source_as_modelled.
