(* C02 — crash recovery applies every acknowledged insert exactly once. *)
From Coq Require Import List.
From Zeno Require Import Crash CrashP Facts Tie.
From Zeno Require Offsets OffsetsP.
Import ListNotations.

(* Kill the process at any instant of any history of acknowledged inserts, WAL reads, row-store applications and
   flushes (data flushes and offsets-only flushes; a kill between the steps of a flush is a kill before or after its
   rename), any number of times; restart on the same directory and let ingestion catch up: the table reflects every
   row-store insert of every acknowledged entry that passes its WHERE exactly once, in order, and nothing else.
   (An insert in flight at the kill either reached the synced WAL — then it is an [Ack] of the history — or not.) *)
Theorem C02_crash_recovery_exactly_once : forall ops, let s := catch_up true (crun true cinit ops) in
  caught_up s = true /\ ccontent s = expected (c_wal s) /\ c_wal s = c_wal (crun true cinit ops).
Proof. exact crash_recovery_exactly_once. Qed.

Theorem C02_every_acked_insert_once : forall ops, let s := catch_up true (crun true cinit ops) in
  forall off i, count_occ pair_eq_dec (ccontent s) (off, i) =
    if (andb (andb (Nat.leb 1 off) (Nat.leb off (length (c_wal s))))
             (andb (c_pass (nth (off - 1) (c_wal s) dcentry))
                   (Nat.leb i (c_k (nth (off - 1) (c_wal s) dcentry)))))
    then 1 else 0.
Proof. exact every_acked_insert_once. Qed.

(* no kill point ever yields a table that lost or double-counted a point: while the process is up the table is exactly
   the entries up to the memstore offset, and the directory is always exactly the entries up to the persisted offset *)
Theorem C02_no_loss_no_double_at_any_time : forall ops, let s := crun true cinit ops in
  c_up s = true -> ccontent s = expected_upto (c_wal s) (c_moff s) /\ c_moff s <= length (c_wal s).
Proof. exact content_is_prefix. Qed.
Theorem C02_offsets_and_rows_in_lock_step : forall ops, let s := crun true cinit ops in
  c_file s = expected_upto (c_wal s) (Nat.max (c_foff s) (c_ofile s)) /\ Nat.max (c_foff s) (c_ofile s) <= length (c_wal s).
Proof. exact disk_is_prefix. Qed.

(* a clean Close/reopen is the special case with nothing in flight *)
Theorem C02_clean_close_special_case : forall ops, let s := crun true cinit ops in caught_up s = true ->
  let s' := cstep true (cstep true (cstep true s Flush) Crash) Open in
  caught_up s' = true /\ ccontent s' = expected (c_wal s') /\ c_mem s' = [].
Proof. exact clean_close_special_case. Qed.

(* the code as shipped sent the row-store inserts of one array-valued point one by one, so that a flush could record the
   point's offset between them: refuted (the repaired code is the model with atomic = true); histories without array
   values were never affected *)
Theorem C02_array_split_refuted : exists ops, let s := catch_up false (crun false cinit ops) in
  caught_up s = true /\ ccontent s <> expected (c_wal s).
Proof. exact array_split_refuted. Qed.
Theorem C02_scalar_histories_unaffected : forall ops, (forall p k, In (Ack p k) ops -> k = 0) ->
  crun false cinit ops = crun true cinit ops.
Proof. exact scalar_histories_unaffected. Qed.

(* tie to the source, re-read on every run: doProcessFlush and writeOffsets perform their durable steps in the order the
   model's atomic Flush stands for (temp write, sync, close, rename = commit, then the swap of the in-memory stores),
   and doInsert hands the row store ONE insert per point (the model with atomic = true) *)
Theorem C02_flush_steps_as_modelled : gen_flush_steps = modelled_flush_steps.
Proof. exact flush_steps_tied. Qed.
Theorem C02_offset_file_steps_as_modelled : gen_offsets_steps = modelled_offsets_steps.
Proof. exact offsets_steps_tied. Qed.
Theorem C02_point_submitted_atomically : gen_point_submissions = modelled_point_submissions.
Proof. exact point_submitted_once. Qed.

Theorem C02_nonvacuous : exists ops, let s := catch_up true (crun true cinit ops) in
  4 <= length (ccontent s) /\ In Crash ops /\ In Flush ops.
Proof. exact crash_nonvacuous. Qed.

(* the offsets a recovering table resumes from (newest file header advanced by the offset file, memstore offsets advanced by the file's) are combined by
   common.OffsetsBySource.Advance (Model/Offsets.v): source by source the later of the two offsets, so no offset ever moves
   backwards, whichever operand is nil, and the order of combination does not matter to any reader *)
Theorem C02_offsets_advance : forall s a b, OffsetsP.wf_obs b -> OffsetsP.nonneg a -> OffsetsP.nonneg b ->
  Offsets.olook s (Offsets.advance a b) = Offsets.off_max (Offsets.olook s a) (Offsets.olook s b).
Proof. exact OffsetsP.advance_read. Qed.
Theorem C02_offsets_never_move_backwards : forall s a b, OffsetsP.wf_obs b -> OffsetsP.nonneg a -> OffsetsP.nonneg b ->
  OffsetsP.off_le (Offsets.olook s a) (Offsets.olook s (Offsets.advance a b))
  /\ OffsetsP.off_le (Offsets.olook s b) (Offsets.olook s (Offsets.advance a b)).
Proof. exact OffsetsP.advance_ge. Qed.

Example C02_offsets_nonvacuous : OffsetsP.offsets_example_statement.
Proof. exact OffsetsP.offsets_example. Qed.

Print Assumptions C02_crash_recovery_exactly_once.
Print Assumptions C02_every_acked_insert_once.
Print Assumptions C02_no_loss_no_double_at_any_time.
Print Assumptions C02_offsets_and_rows_in_lock_step.
Print Assumptions C02_clean_close_special_case.
Print Assumptions C02_array_split_refuted.
Print Assumptions C02_scalar_histories_unaffected.
Print Assumptions C02_flush_steps_as_modelled.
Print Assumptions C02_offset_file_steps_as_modelled.
Print Assumptions C02_point_submitted_atomically.
Print Assumptions C02_nonvacuous.
Print Assumptions C02_offsets_advance.
Print Assumptions C02_offsets_never_move_backwards.
