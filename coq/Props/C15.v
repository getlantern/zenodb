(* C15 — altering a table keeps the stored values of every field it retains. *)
From Coq Require Import QArith.
From Zeno Require Import Base Sort Expr ExprSpec Store StoreExprP DB Alter AlterP.
Local Open Scope Z_scope.

(* a field that keeps its name and expression keeps aggregating from the same point on: its values are
   untouched by the alteration (permutations, insertions, deletions of other fields) *)
Theorem C15_retained_field_keeps_history : forall old now new n e f,
  In (n, e) new -> find (same_field n e) old = Some f ->
  In {| af_name := n; af_expr := e; af_since := af_since f |} (alter_fields old now new).
Proof. exact alter_keeps_since. Qed.

(* an added field starts empty and is filled only by points processed afterwards *)
Theorem C15_added_field_starts_empty : forall old now new n e,
  In (n, e) new -> find (same_field n e) old = None ->
  In {| af_name := n; af_expr := e; af_since := now |} (alter_fields old now new).
Proof. exact alter_new_since. Qed.
Theorem C15_field_sees_points_since_added : forall n acc p,
  In p (pts_since n acc) <-> exists i, (n <= i)%nat /\ In (i, p) acc.
Proof. exact pts_since_spec. Qed.

(* the new definition has exactly the new fields in the new order *)
Theorem C15_new_definition : forall old now new, map (fun f => (af_name f, af_expr f)) (alter_fields old now new) = new.
Proof. exact alter_fields_names. Qed.

(* a new WHERE applies only to points processed after the change; accepted points are never lost *)
Theorem C15_where_from_then_on : forall s fs w p,
  a_acc (astep (astep s (AAlter fs w)) (AIns p)) = if flag w p then a_acc s ++ [p] else a_acc s.
Proof. exact where_from_then_on. Qed.
Theorem C15_accepted_points_kept : forall s o, exists l, a_acc (astep s o) = a_acc s ++ l.
Proof. exact astep_acc_extends. Qed.

(* in memory or on disk, across any later flushes: each retained column is stored by the row store exactly as
   if it were alone (the store refinement is per column) *)
Theorem C15_column_across_flushes : forall e res H evs tbq k t,
  0 < res -> Forall (ev_ok res H) evs -> 0 <= tbq -> tbq + res <= H -> H <= t -> 0 < t ->
  read e res tbq evs k t = st e (points_of res k t evs).
Proof. exact store_reads_accumulated_state. Qed.

Example C15_nonvacuous :
  let f1 := (1, EAgg SUM (EField 1)) in let f2 := (2, EAgg MAX (EField 1)) in let f3 := (3, EAgg COUNT (EField 1)) in
  let p ts v := {| tp_ts := ts; tp_dims := []; tp_pt := {| p_vals := [(9, 1); (1, v)]; p_md := [] |}; tp_flags := [true; Z.ltb v 10] |} in
  let ops := [AIns (p 3 5); AFlush; AAlter [f3; f1] (Some 1%nat); AIns (p 3 7); AIns (p 4 50); AReopen; AAlter [f2; f1; f3] (Some 1%nat); AIns (p 3 2)] in
  map o_vals (alter_rows None 2 (arun [f1; f2] None ops)) = [[3%Q; 2%Q; 14%Q; 2%Q]].
Proof. vm_compute. reflexivity. Qed.

Print Assumptions C15_retained_field_keeps_history.
Print Assumptions C15_added_field_starts_empty.
Print Assumptions C15_field_sees_points_since_added.
Print Assumptions C15_new_definition.
Print Assumptions C15_where_from_then_on.
Print Assumptions C15_accepted_points_kept.
Print Assumptions C15_column_across_flushes.
