(* C05 — combining partial aggregates equals aggregating the raw points directly.
   Only property theorems here, each closed by [exact]. *)
From Coq Require Import Sorting.Permutation.
From Zeno Require Import Base Expr ExprSpec Seq ExprP SeqP Tie.

Local Open Scope Z_scope.

(* merging two partial states = accumulating all underlying points into one state;
   for every expression tree of the modelled grammar and all point lists *)
Theorem C05_merge_hom : forall e A B, Expr.merge e (st e A) (st e B) = st e (A ++ B).
Proof. exact merge_hom. Qed.

Theorem C05_split3 : forall e A B C,
  Expr.merge e (st e A) (Expr.merge e (st e B) (st e C)) = st e (A ++ B ++ C).
Proof. exact merge_split3. Qed.

(* commutative and associative, on all well-shaped states (not only reachable ones) *)
Theorem C05_merge_comm : forall e x y, shaped e x = true -> shaped e y = true ->
  Expr.merge e x y = Expr.merge e y x.
Proof. exact merge_comm. Qed.
Theorem C05_merge_assoc : forall e x y z, shaped e x = true -> shaped e y = true -> shaped e z = true ->
  Expr.merge e (Expr.merge e x y) z = Expr.merge e x (Expr.merge e y z).
Proof. exact merge_assoc. Qed.
Theorem C05_merge_unit : forall e x, shaped e x = true ->
  Expr.merge e x (empty e) = x /\ Expr.merge e (empty e) x = x.
Proof. intros e x H. split; [apply merge_empty_r|apply merge_empty_l]; exact H. Qed.

(* arrival order of the points is irrelevant *)
Theorem C05_order_irrelevant : forall e A A', Permutation A A' -> st e A = st e A'.
Proof. exact order_irrelevant. Qed.

(* the value read from the accumulated state is the declared aggregate over exactly the points *)
Theorem C05_get_is_declared_aggregate : forall e pts, get e (st e pts) = ref e pts.
Proof. exact get_ref. Qed.

(* restricting a stored series to a time range keeps exactly the periods in (asOf, until], values unchanged *)
Theorem C05_truncate : forall (cell:Type) (s:seq cell) res asOf until t, 0 < res ->
  (asOf = 0 \/ res <= asOf) -> (until = 0 \/ res <= until) -> (forall u cs, s = Some (u, cs) -> res <= u) ->
  den cell res (truncate cell s res asOf until) t =
  if ((asOf =? 0) || (asOf <? t)) && ((until =? 0) || (t <=? until)) then den cell res s t else None.
Proof. exact truncate_den. Qed.

(* the kernels the theorems above are about are the ones in /repo's expr/aggregates.go now *)
Theorem C05_kernels_are_the_source : kernels_tied.
Proof. exact kernels_tied_holds. Qed.

(* non-vacuity: a concrete tree with every node kind, three batches, non-trivial state *)
Example C05_nonvacuous :
  let e := EBin DIV (EIf 0 (EAgg SUM (EBounded (EField 1) 0 10))) (EBin ADD (EAvg (EField 1) (EField 2)) (EAgg MIN (EField 2))) in
  let p a b c := {| p_vals := [(1, a); (2, b)]; p_md := [c] |} in
  let A := [p 3 2 true; p 20 1 true] in let B := [p 5 4 false] in let C := [p 7 (-1) true] in
  valid e = true /\
  st e (A ++ B ++ C) = CBin (CAgg (Some 10)) (CBin (CAvg (Some (6, 39))) (CAgg (Some (-1)))) /\
  Expr.merge e (st e A) (Expr.merge e (st e B) (st e C)) = st e (A ++ B ++ C).
Proof. vm_compute. auto. Qed.

Print Assumptions C05_merge_hom.
Print Assumptions C05_split3.
Print Assumptions C05_merge_comm.
Print Assumptions C05_merge_assoc.
Print Assumptions C05_merge_unit.
Print Assumptions C05_order_irrelevant.
Print Assumptions C05_get_is_declared_aggregate.
Print Assumptions C05_truncate.
Print Assumptions C05_kernels_are_the_source.
