(* C11 — the distributed query plan is equivalent to the local plan. *)
From Coq Require Import Sorting.Permutation.
From Zeno Require Import Base Sort Expr ExprSpec ExprP DB DBP Cluster ClusterP Plan PlanP.
Import ListNotations.

(* A query is pushed down whole only when every output group is confined to a single partition: whenever the
   planner's predicate (the model of pushdownAllowed, compared with the real planner's choice on every generated
   query) says yes, two points whose table rows end up in the same output group are routed to the same partition —
   for every interpretation of the group-by expressions that honours goexpr's one-to-one contract, every routing
   function that looks at the partition keys only, every nesting of FROM-subqueries. *)
Theorem C11_pushdown_only_if_confined :
  forall (value:Type) (absent:value) (eval:nat -> nat -> key value -> value) (tkey:key value -> key value) (q:pquery) (route:key value -> nat),
  pushdown_allowed q = true ->
  oto_sound value eval (pq_levels q) ->
  table_oto value tkey (pq_table_gb q) ->
  (forall p d, In p (pq_pk q) -> tkey d p = d p) ->
  route_respects value (pq_pk q) route ->
  forall d1 d2,
    (forall n, out_key value absent eval (pq_levels q) (tkey d1) n = out_key value absent eval (pq_levels q) (tkey d2) n) ->
    route d1 = route d2.
Proof. exact pushdown_only_if_confined. Qed.

Theorem C11_crosstab_not_pushed_down : forall q, pq_crosstab q = true -> pushdown_allowed q = false.
Proof. exact crosstab_not_pushed_down. Qed.
Theorem C11_limited_subquery_not_pushed_down : forall q, pq_subbad q = true -> pushdown_allowed q = false.
Proof. exact limited_subquery_not_pushed_down. Qed.
(* a FROM-subquery that filters by an IN-subquery of its own is never pushed down: each partition would evaluate that
   subquery on its own data only (only the outermost WHERE's subqueries are evaluated cluster-wide by the leader) *)
Theorem C11_nested_subquery_not_pushed_down : forall q, pq_nested_subq q = true -> pushdown_allowed q = false.
Proof. exact nested_subquery_not_pushed_down. Qed.
Theorem C11_unkeyed_pushdown_only_when_nothing_regroups : forall q, pq_pk q = [] -> pushdown_allowed q = true ->
  pq_table_gb q = None /\ forallb l_all (pq_levels q) = true.
Proof. exact unkeyed_pushdown_only_when_nothing_regroups. Qed.
Theorem C11_table_key_must_carry_partition_keys : forall q tparams k, pq_table_gb q = Some tparams -> In k (pq_pk q) ->
  memb k tparams = false -> pushdown_allowed q = false.
Proof. exact table_key_must_carry_partition_keys. Qed.

(* whole-query pushdown is sound when groups are confined: the partition that holds a group holds all of it, the others
   none of it, so the union of the partitions' answers is the local answer *)
Theorem C11_pushdown_sound : forall T q route pts k t p, confined T q route pts ->
  glookup k t (groups T q (routed_to route p pts)) = glookup k t (groups T q pts)
  \/ glookup k t (groups T q (routed_to route p pts)) = [].
Proof. exact pushdown_sound. Qed.
Theorem C11_pushdown_complete : forall T q route pts k t x, confined T q route pts ->
  In x pts -> contributes_to T q k t x = true ->
  glookup k t (groups T q (routed_to route (route x) pts)) = glookup k t (groups T q pts).
Proof. exact pushdown_complete. Qed.

(* partition-side pre-aggregation followed by leader-side grouping is sound for every split: the leader re-merges
   accumulator states, and merging the partitions' states is the state (hence the value) of all the points *)
Theorem C11_nonpushdown_sound : forall e parts all, Permutation all (concat parts) -> remerge e parts = st e all.
Proof. exact remerge_sound. Qed.
Theorem C11_nonpushdown_value : forall e parts all, Permutation all (concat parts) -> get e (remerge e parts) = ref e all.
Proof. exact remerge_value. Qed.

(* rejecting is right: there is a shape the predicate rejects whose groups really span partitions *)
Theorem C11_rejection_is_justified : exists (q:pquery) (eval:nat -> nat -> key nat -> nat) (route:key nat -> nat) (d1 d2:key nat),
  pushdown_allowed q = false /\ oto_sound nat eval (pq_levels q) /\ route_respects nat (pq_pk q) route /\
  (forall n, out_key nat 0%nat eval (pq_levels q) d1 n = out_key nat 0%nat eval (pq_levels q) d2 n) /\ route d1 <> route d2.
Proof. exact rejection_is_justified. Qed.

Print Assumptions C11_pushdown_only_if_confined.
Print Assumptions C11_crosstab_not_pushed_down.
Print Assumptions C11_limited_subquery_not_pushed_down.
Print Assumptions C11_nested_subquery_not_pushed_down.
Print Assumptions C11_unkeyed_pushdown_only_when_nothing_regroups.
Print Assumptions C11_table_key_must_carry_partition_keys.
Print Assumptions C11_pushdown_sound.
Print Assumptions C11_pushdown_complete.
Print Assumptions C11_nonpushdown_sound.
Print Assumptions C11_nonpushdown_value.
Print Assumptions C11_rejection_is_justified.
