(* C01 — each ingested point is aggregated exactly once into the right group and period. *)
From Coq Require Import QArith Lia.
From Zeno Require Import Base Sort Expr ExprSpec ExprP DB DBP Tie Store StoreExprP.
From Zeno Require Tree TreeP.
From Zeno Require TieTree.
From Zeno Require TreeStoreP.
Local Open Scope Z_scope.

(* a point with timestamp ts is counted in the period ending at the least multiple of the resolution >= ts, and in no other *)
Theorem C01_bucket : forall res ts, 0 < res ->
  let b := bucket res ts in
  ts <= b < ts + res /\ (exists k, b = k * res) /\
  (forall b', (exists k', b' = k' * res) -> ts <= b' -> b <= b').
Proof. exact bucket_spec. Qed.
Theorem C01_bucket_unique : forall res ts b, 0 < res -> (exists k, b = k * res) -> ts <= b < ts + res -> b = bucket res ts.
Proof. exact bucket_unique. Qed.

(* exactly one row per (group key, period) *)
Theorem C01_one_row_per_group_period : forall T q pts, NoDup (map fst (groups T q pts)).
Proof. exact groups_distinct. Qed.

(* the points aggregated into row (k,t) are exactly the accepted points with that key and period, each once, in order *)
Theorem C01_row_points_exact : forall T q pts k t,
  glookup k t (groups T q pts) = map tp_pt (filter (contributes_to T q k t) pts).
Proof. exact groups_lookup. Qed.

(* every field of the row equals its declared aggregate over exactly those points *)
Theorem C01_field_is_declared_aggregate : forall e pts, get e (st e pts) = ref e pts.
Proof. exact get_ref. Qed.

(* the row store (memstore + filestore, inserts, flushes with merge/truncation/raw pass-through) refines that
   reference for EVERY interleaving of inserts and flushes: above the truncation horizon H, what a
   memstore-inclusive reader finds for key k and period t is the state accumulated from exactly the
   inserted points of key k whose period ends at t, and it reads as their declared aggregate *)
Theorem C01_store_state : forall e res H evs tbq k t,
  0 < res -> Forall (ev_ok res H) evs -> 0 <= tbq -> tbq + res <= H -> H <= t -> 0 < t ->
  read e res tbq evs k t = st e (points_of res k t evs).
Proof. exact store_reads_accumulated_state. Qed.
Theorem C01_store_value : forall e res H evs tbq k t,
  0 < res -> Forall (ev_ok res H) evs -> 0 <= tbq -> tbq + res <= H -> H <= t -> 0 < t ->
  get e (read e res tbq evs k t) = ref e (points_of res k t evs).
Proof. exact store_reads_declared_aggregate. Qed.

(* the kernels are those of /repo's expr/aggregates.go on this run *)
Theorem C01_kernels_are_the_source : kernels_tied.
Proof. exact kernels_tied_holds. Qed.

Example C01_nonvacuous :
  let T := {| t_fields := [(0, EAgg SUM (EField 9)); (1, EAgg MAX (EField 1))]; t_groupby := Some [11];
              t_res := 2; t_ret := 100; t_where := Some 0%nat |} in
  let q := {| q_fields := None; q_groupby := None; q_period := 0; q_asof := 0; q_until := 0; q_where := None; q_now := 20; q_vis := None; q_limit := None |} in
  let p ts d v w := {| tp_ts := ts; tp_dims := [(11, VStr [d]); (12, VInt 5)];
                       tp_pt := {| p_vals := [(9, 1); (1, v)]; p_md := [] |}; tp_flags := [w] |} in
  map (fun r => (o_ts r, o_vals r)) (spec_rows T q [p 3 97 5 true; p 4 97 9 true; p 4 98 1 true; p 5 97 2 false; p 5 97 7 true])
  = [(4, [2%Q; 9%Q]); (4, [1%Q; 1%Q]); (6, [1%Q; 7%Q])].
Proof. vm_compute. reflexivity. Qed.

Example C01_store_nonvacuous :
  let e := EAgg SUM (EField 1) in
  let p v := {| p_vals := [(1, v)]; p_md := [] |} in
  let k := [(11, VStr [97])] in
  let evs := [EIns k 13 2 (p 5); EFlush 2 true; EIns k 14 2 (p 7); EIns k 11 4 (p 1); EFlush 4 false; EIns k 13 4 (p 100)] in
  Forall (ev_ok 2 6) evs /\ read e 2 4 evs k 14 = CAgg (Some 112) /\ read e 2 4 evs k 12 = CAgg (Some 1).
Proof. intros. split; [repeat constructor; cbn; lia|]. vm_compute. auto. Qed.

(* the memstore's radix tree (bytetree.Tree, Model/Tree.v) is a finite map whatever the keys: after any sequence of
   Updates from the empty tree every key reads as what its own Updates accumulated, in order (nil to start with),
   a key that was never updated is absent, and Length is the number of keys; a Walk reports every key once *)
Theorem C01_tree_is_a_map : forall (D:Type) (ups:list (list Z * (option D -> D))) key,
  Tree.tfind key (TreeP.built ups) = TreeP.spec_data key ups None.
Proof. exact TreeP.built_find. Qed.
Theorem C01_tree_update : forall (D:Type) (f:option D -> D) key (t:Tree.tree D), TreeP.wf_tree t ->
  TreeP.wf_tree (Tree.tupdate f key t)
  /\ (forall key', Tree.tfind key' (Tree.tupdate f key t)
                   = if list_eqb Z.eqb key' key then Some (f (Tree.tfind key t)) else Tree.tfind key' t).
Proof. exact TreeP.tupdate_map. Qed.
Theorem C01_tree_walk_each_key_once : forall (D:Type) ctx keep (t:Tree.tree D), TreeP.wf_tree t -> TreeP.unmarked ctx t ->
  let vs := snd (Tree.twalk ctx (fun _ _ => (true, keep)) t) in
  Permutation.Permutation vs (map (@TreeP.kd_of D) (TreeP.content t)) /\ NoDup (map fst vs)
  /\ (forall k d, In (k, d) vs <-> Tree.tfind k t = Some d).
Proof. exact TreeP.twalk_all. Qed.
(* the tree as shipped is refuted (repaired in /repo, e89d368): "abc", "abd", then "ab" reported the empty key *)
Theorem C01_shipped_tree_refuted :
  exists ups, let t := TreeP.shipped_built ups in
    In [97; 98] (map fst ups) /\ ~ In [] (map fst ups)
    /\ snd (Tree.twalk 0 (fun _ _ => (true, true)) t) = [([], 2); ([97; 98; 99], 1); ([97; 98; 100], 1)]
    /\ Tree.t_len t = 2.
Proof. exact TreeP.shipped_update_refuted. Qed.

(* the structure of bytetree.go the tree theorems speak about (branch chains of the edge loops of Tree.doUpdate and
   Tree.Remove, who takes the key, Walk's queue) is the one the translator reads from /repo on this run *)
Theorem C01_tree_source_as_modelled : TieTree.tree_source_as_modelled.
Proof. exact TieTree.tree_source_as_modelled_holds. Qed.

(* the memstore of the row-store model (Model/Store.v, an association list, over which C01_store_state / C01_store_value and
   the C03 theorems are proved) is refined by the radix tree: for every sequence of inserts the tree built by Tree.Update
   is well formed and reads, key by key, as the association list built by upsert *)
Theorem C01_memstore_is_the_radix_tree : forall (cell:Type) (ins:list (list Z * (Seq.seq cell -> Seq.seq cell))),
  let t := fold_left (fun t u => Tree.tupdate (TreeStoreP.lift cell (snd u)) (fst u) t) ins Tree.tnew in
  let m := fold_left (fun m u => Store.upsert (list Z) TreeStoreP.kqb cell (fst u) (snd u) m) ins [] in
  TreeP.wf_tree t /\ TreeStoreP.refines cell t m.
Proof. exact TreeStoreP.memstore_refines. Qed.

(* non-vacuity of the tree theorems: a tree built from keys that are prefixes of each other, the empty key included,
   is well formed (as every built tree is), and reads and walks as the theorems say *)
Example C01_tree_nonvacuous :
  let add v := fun o : option Z => match o with Some c => c + v | None => v end in
  let ups := [([97; 98; 99], add 1); ([97; 98; 100], add 2); ([97; 98], add 4); ([], add 8); ([98], add 16); ([97; 98], add 32)] in
  let t := TreeP.built ups in
  TreeP.wf_tree t
  /\ Tree.tfind [97; 98] t = Some 36 /\ Tree.tfind [] t = Some 8 /\ Tree.tfind [97] t = None
  /\ Tree.t_len t = 5
  /\ snd (Tree.twalk 0 (fun _ _ => (true, true)) t) = [([97; 98], 36); ([], 8); ([97; 98; 99], 1); ([97; 98; 100], 2); ([98], 16)].
Proof. intros. split; [apply TreeP.built_wf|]. vm_compute. auto. Qed.

Print Assumptions C01_bucket.
Print Assumptions C01_bucket_unique.
Print Assumptions C01_one_row_per_group_period.
Print Assumptions C01_row_points_exact.
Print Assumptions C01_field_is_declared_aggregate.
Print Assumptions C01_kernels_are_the_source.
Print Assumptions C01_store_state.
Print Assumptions C01_store_value.
Print Assumptions C01_tree_is_a_map.
Print Assumptions C01_tree_update.
Print Assumptions C01_tree_walk_each_key_once.
Print Assumptions C01_shipped_tree_refuted.
Print Assumptions C01_tree_source_as_modelled.
Print Assumptions C01_memstore_is_the_radix_tree.
