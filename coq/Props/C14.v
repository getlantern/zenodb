(* C14 — retention drops only expired data, and expired data stays gone. *)
From Zeno Require Import Base Sort Expr ExprSpec Seq SeqP Store StoreExprP DB Retention RetentionP Facts.
Local Open Scope Z_scope.

(* a point older than the retention period when it is processed is never stored *)
Theorem C14_too_old_ignored : forall T s p, tp_ts p < r_clock s - t_ret T -> rstep T s (RIns p) = s.
Proof. exact too_old_ignored. Qed.

(* the clock never goes back, so "too old" is final *)
Theorem C14_clock_monotone : forall T ops s, r_clock s <= r_clock (fold_left (rstep T) ops s).
Proof. exact rrun_clock_mono. Qed.

(* a period still inside the window is never dropped by inserts, flushes or truncation: above the
   truncation horizon the row store holds exactly the accumulated state of the period's points *)
Theorem C14_live_never_dropped : forall e res H evs tbq k t,
  0 < res -> Forall (ev_ok res H) evs -> 0 <= tbq -> tbq + res <= H -> H <= t -> 0 < t ->
  read e res tbq evs k t = st e (points_of res k t evs).
Proof. exact store_reads_accumulated_state. Qed.

(* the truncation applied when rows are rewritten removes exactly the wholly expired periods ... *)
Theorem C14_written_removes_expired : forall (cell:Type) (s:seq cell) res tb t, 0 < res -> res <= tb ->
  (forall u cs, s = Some (u, cs) -> res <= u) -> t <= tb -> den cell res (truncate cell s res tb 0) t = None.
Proof. exact written_removes_expired. Qed.
Theorem C14_written_keeps_live : forall (cell:Type) (s:seq cell) res tb t, 0 < res -> res <= tb ->
  (forall u cs, s = Some (u, cs) -> res <= u) -> tb < t -> den cell res (truncate cell s res tb 0) t = den cell res s t.
Proof. exact written_keeps_live. Qed.

(* ... it never reaches beyond clock - retention, and only grows *)
Theorem C14_horizon_bounded : forall T s o, 0 < t_res T -> horizon_ok T s -> horizon_ok T (rstep T s o).
Proof. exact rstep_horizon_ok. Qed.
Theorem C14_horizon_monotone : forall T s o, r_horizon s <= r_horizon (rstep T s o).
Proof. exact rstep_horizon_mono. Qed.

(* a truncating flush happens within ten data-carrying flushes *)
Theorem C14_truncating_within_ten : forall n, 0 <= n -> exists k, 0 <= k < truncate_every /\ Z.rem (n + k) truncate_every = truncate_every - 1.
Proof. exact truncating_within_ten. Qed.
(* and "ten" is the constant in /repo's row_store.go on this run *)
Theorem C14_truncate_every_is_source : gen_truncate_every = truncate_every /\ gen_truncate_rem = truncate_every - 1.
Proof. split; reflexivity. Qed.

(* expired data stays gone: a later point of a truncated period is too old (ignored) or sits exactly on the boundary *)
Theorem C14_no_resurrection : forall T s p, horizon_ok T s -> 0 < r_horizon s ->
  bucket (t_res T) (tp_ts p) <= r_horizon s -> 0 < t_res T ->
  tp_ts p < r_clock s - t_ret T \/ tp_ts p = r_clock s - t_ret T.
Proof. exact no_resurrection_clock. Qed.

Print Assumptions C14_too_old_ignored.
Print Assumptions C14_clock_monotone.
Print Assumptions C14_live_never_dropped.
Print Assumptions C14_written_removes_expired.
Print Assumptions C14_written_keeps_live.
Print Assumptions C14_horizon_bounded.
Print Assumptions C14_horizon_monotone.
Print Assumptions C14_truncating_within_ten.
Print Assumptions C14_truncate_every_is_source.
Print Assumptions C14_no_resurrection.
