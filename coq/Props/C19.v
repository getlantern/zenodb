(* C19 — data-disclosing endpoints refuse callers without valid credentials. *)
From Coq Require Import String.
From Zeno Require Import Base Auth AuthP Facts.
Local Open Scope string_scope.

(* every RPC handler that reaches stored data or query traffic (query, follow, remote-query-handler
   registration) calls authorize first and returns on failure — checked on the table translated from
   rpc/server/rpc_server.go on this run *)
Theorem C19_rpc_guarded : forall h, In h gen_rpc_handlers -> rpc_discloses h = true -> rpc_guarded h = true.
Proof. exact rpc_every_disclosing_handler_guarded. Qed.

(* with a password configured, a caller that does not present it is refused *)
Theorem C19_rpc_refuses : forall pw presented, pw <> "" -> ~ In pw presented -> authorize pw presented = false.
Proof. exact authorize_refuses. Qed.
Theorem C19_rpc_accepts_password : forall pw presented, In pw presented -> authorize pw presented = true.
Proof. exact authorize_accepts. Qed.

(* every web route that serves query or cached results authenticates first — checked on the table
   translated from web/*.go on this run *)
Theorem C19_web_routes_guarded : forall r, In r gen_web_routes -> web_serves_data r = true -> web_guarded r = true.
Proof. exact web_every_data_route_guarded. Qed.

(* when web authentication is configured a request is served only with the static token or an
   unexpired, verified session *)
Theorem C19_web_served_only_if : forall c header ck now, w_oauth c = true -> authenticate c header ck now = true ->
  (w_password c <> "" /\ header = w_password c)
  \/ (exists e, ck = CSession e InOrg /\ (now <= e)%Z).
Proof. exact authenticate_only_if. Qed.

(* an absent, forged, expired or unverified session cookie is not accepted *)
Theorem C19_web_expired_or_forged_refused : forall c ck now, w_oauth c = true ->
  (ck = CAbsent \/ ck = CUndecodable \/ (exists e o, ck = CSession e o /\ (e < now)%Z)
   \/ (exists e, ck = CSession e NotInOrg) \/ (exists e, ck = CSession e OrgError)) ->
  authenticate c "" ck now = false.
Proof. exact expired_or_forged_refused. Qed.

(* the tables are the expected ones (non-vacuity): three disclosing RPC handlers, four data routes *)
Theorem C19_tables_nonvacuous :
  map fst (filter rpc_discloses gen_rpc_handlers) = ["Query"; "Follow"; "HandleRemoteQueries"] /\
  map fst (filter web_serves_data gen_web_routes) = ["/async"; "/immediate"; "/run"; "/cached/{permalink}"].
Proof. exact tables_nonvacuous. Qed.

Print Assumptions C19_rpc_guarded.
Print Assumptions C19_rpc_refuses.
Print Assumptions C19_rpc_accepts_password.
Print Assumptions C19_web_routes_guarded.
Print Assumptions C19_web_served_only_if.
Print Assumptions C19_web_expired_or_forged_refused.
Print Assumptions C19_tables_nonvacuous.
