(* Tie.v — the regenerated facts (Gen/Facts.v, translated from /repo's Go source
   on every run by srcfacts) coincide with the hand-written model: the kernels of
   expr/aggregates.go, expr/calcs.go and expr/conds.go, and the step lists of a flush,
   of the offset file and of submitting a point in row_store.go and insert.go (C02).
   A change to the source that alters one of them breaks a lemma here, and with it
   every property theorem that imports Tie. *)
From Coq Require Import Lia String.
From Zeno Require Import Base Expr Facts.

Local Open Scope Z_scope.

(* robust against harmless rewrites of a kernel (e.g. <= for <, swapped branches):
   case-split every comparison and let lia compare the values *)
Ltac split_cmp :=
  repeat match goal with
  | |- context [?a <? ?b] => destruct (Z.ltb_spec a b)
  | |- context [?a <=? ?b] => destruct (Z.leb_spec a b)
  | |- context [?a =? ?b] => destruct (Z.eqb_spec a b)
  end.
Ltac kernel :=
  intros; unfold agg_update, agg_merge;
  cbv beta delta [gen_update_SUM gen_merge_SUM gen_update_MIN gen_merge_MIN
                  gen_update_MAX gen_merge_MAX gen_update_COUNT gen_merge_COUNT];
  match goal with w : bool |- _ => destruct w end; cbn [negb]; split_cmp; lia.

Lemma tie_update_SUM : forall w c n, gen_update_SUM w c n = agg_update SUM w c n. Proof. kernel. Qed.
Lemma tie_merge_SUM : forall w c n, gen_merge_SUM w c n = agg_merge SUM w c n. Proof. kernel. Qed.
Lemma tie_update_MIN : forall w c n, gen_update_MIN w c n = agg_update MIN w c n. Proof. kernel. Qed.
Lemma tie_merge_MIN : forall w c n, gen_merge_MIN w c n = agg_merge MIN w c n. Proof. kernel. Qed.
Lemma tie_update_MAX : forall w c n, gen_update_MAX w c n = agg_update MAX w c n. Proof. kernel. Qed.
Lemma tie_merge_MAX : forall w c n, gen_merge_MAX w c n = agg_merge MAX w c n. Proof. kernel. Qed.
Lemma tie_update_COUNT : forall w c n, gen_update_COUNT w c n = agg_update COUNT w c n. Proof. kernel. Qed.
Lemma tie_merge_COUNT : forall w c n, gen_merge_COUNT w c n = agg_merge COUNT w c n. Proof. kernel. Qed.

Lemma tie_aggregates : gen_aggregates = ["SUM"; "MIN"; "MAX"; "COUNT"]%string.
Proof. reflexivity. Qed.
Lemma tie_no_unsupported : gen_unsupported = [].
Proof. reflexivity. Qed.

Lemma tie_maxfloat : Facts.maxfloat = Expr.maxfloat. Proof. reflexivity. Qed.

Lemma tie_calc_ADD : forall l r, gen_calc_ADD l r = calc ADD l r. Proof. reflexivity. Qed.
Lemma tie_calc_SUB : forall l r, gen_calc_SUB l r = calc SUB l r. Proof. reflexivity. Qed.
Lemma tie_calc_MUL : forall l r, gen_calc_MUL l r = calc MUL l r. Proof. reflexivity. Qed.
Lemma tie_calc_DIV : forall l r, gen_calc_DIV l r = calc DIV l r. Proof. reflexivity. Qed.
Lemma tie_cond_LT : forall l r, gen_cond_LT l r = cond_op LT l r. Proof. reflexivity. Qed.
Lemma tie_cond_LTE : forall l r, gen_cond_LTE l r = cond_op LTE l r. Proof. reflexivity. Qed.
Lemma tie_cond_EQ : forall l r, gen_cond_EQ l r = cond_op EQ l r. Proof. reflexivity. Qed.
Lemma tie_cond_NEQ : forall l r, gen_cond_NEQ l r = cond_op NEQ l r. Proof. reflexivity. Qed.
Lemma tie_cond_GTE : forall l r, gen_cond_GTE l r = cond_op GTE l r. Proof. reflexivity. Qed.
Lemma tie_cond_GT : forall l r, gen_cond_GT l r = cond_op GT l r. Proof. reflexivity. Qed.
Lemma tie_cond_AND : forall l r, gen_cond_AND l r = cond_op AND l r. Proof. reflexivity. Qed.
Lemma tie_cond_OR : forall l r, gen_cond_OR l r = cond_op OR l r. Proof. reflexivity. Qed.
Lemma tie_binary_ops : gen_binary_ops = ["+"; "-"; "*"; "/"; "<"; "<="; "="; "<>"; ">="; ">"; "AND"; "OR"]%string.
Proof. reflexivity. Qed.

(* a single fact the property files import: every translated kernel is the model's *)
Definition kernels_tied : Prop :=
  (forall a w c n, match a with SUM => gen_update_SUM | MIN => gen_update_MIN | MAX => gen_update_MAX | COUNT => gen_update_COUNT end w c n
                   = agg_update a w c n) /\
  (forall a w c n, match a with SUM => gen_merge_SUM | MIN => gen_merge_MIN | MAX => gen_merge_MAX | COUNT => gen_merge_COUNT end w c n
                   = agg_merge a w c n).
Lemma kernels_tied_holds : kernels_tied.
Proof.
  split; intros a; destruct a.
  - exact tie_update_SUM.
  - exact tie_update_MIN.
  - exact tie_update_MAX.
  - exact tie_update_COUNT.
  - exact tie_merge_SUM.
  - exact tie_merge_MIN.
  - exact tie_merge_MAX.
  - exact tie_merge_COUNT.
Qed.

(* C02: the steps of a flush / of the offset file / of submitting a point, as written in row_store.go and insert.go,
   are the ones the crash model assumes: temp write, sync, close, rename (the commit point), then the in-memory swap;
   one row-store submission per point (atomic = true in Model/Crash.v) *)
Definition modelled_flush_steps : list string := ["write"; "sync"; "close"; "rename"; "swap_file"; "swap_mem"]%string.
Definition modelled_offsets_steps : list string := ["write"; "sync"; "close"; "rename"]%string.
Definition modelled_point_submissions : list string := ["once"]%string.
Lemma flush_steps_tied : gen_flush_steps = modelled_flush_steps.
Proof. reflexivity. Qed.
Lemma offsets_steps_tied : gen_offsets_steps = modelled_offsets_steps.
Proof. reflexivity. Qed.
Lemma point_submitted_once : gen_point_submissions = modelled_point_submissions.
Proof. reflexivity. Qed.
