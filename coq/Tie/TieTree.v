(* TieTree.v — the structure of bytetree.go that Model/Tree.v transcribes by hand, as the translator reads it from
   the source on this run: the branch chains of the edge loops of Tree.doUpdate and Tree.Remove (conditions and what
   each branch does), what follows the loops, who takes the key (the exact-match branch on a node without data; the
   split node when the key ends at the split point), and Walk's queue discipline. *)
From Coq Require Import String List.
Import ListNotations.
Open Scope string_scope.
From Zeno Require Import Facts.

Definition tree_source_as_modelled : Prop :=
  (* upd_es: is_exact -> set_data | is_desc -> upd_n on the rest of the key | is_split -> split | next edge; then eapp *)
  gen_tree_update_branches = [("i == keyLength && keyLength == labelLength", "set");
                              ("i == labelLength && labelLength < keyLength", "descend");
                              ("i > 0", "split")]
  /\ gen_tree_update_after = "append"
  (* rem_es: is_exact -> found | is_desc -> rem_n | next edge (a partly matching edge is passed); then nil *)
  /\ gen_tree_remove_branches = [("i == keyLength && keyLength == labelLength", "found");
                                 ("i == labelLength && labelLength < keyLength", "descend")]
  /\ gen_tree_remove_after = "none"
  (* set_data: a node without data takes the key and counts as new *)
  /\ gen_tree_exact_takes_key = true /\ gen_tree_exact_reports_new = true
  (* split: a separate leaf unless the key ends at the split point, in which case the split node takes the key *)
  /\ gen_tree_split_leaf_when = "splitOn != len(key)" /\ gen_tree_split_else_takes_key = true
  (* bfs: first in, first out *)
  /\ gen_tree_walk_queue = ["take-first"; "drop-first"; "append-child"].

Lemma tree_source_as_modelled_holds : tree_source_as_modelled.
Proof. repeat split; reflexivity. Qed.
