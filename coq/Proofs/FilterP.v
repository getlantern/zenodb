(* FilterP.v — the HAVING specification keeps exactly the matching rows, in order, and nothing else:
   each fact holds of [filter p] for any p. *)
From Coq Require Import QArith.
From Zeno Require Import Base DB Filter.

Section FilterFacts.
  Context {A:Type} (p:A -> bool).

  Lemma filter_all : forall l, (forall x, In x l -> p x = true) -> filter p l = l.
  Proof.
    induction l as [|x l IH]; intros H; [reflexivity|].
    cbn [filter]. rewrite (H x (or_introl eq_refl)). f_equal. apply IH. intros y Hy. apply H. right. exact Hy.
  Qed.

  Lemma filter_idem : forall l, filter p (filter p l) = filter p l.
  Proof. intros l. apply filter_all. intros x Hx. apply filter_In in Hx. apply Hx. Qed.

  Lemma filter_mask : forall l, filter p l = map snd (filter fst (combine (map p l) l)).
  Proof.
    induction l as [|x l IH]; [reflexivity|].
    cbn [map combine filter fst]. destruct (p x); cbn [map snd]; rewrite <- IH; reflexivity.
  Qed.

  Lemma filter_split_length : forall l, (length (filter (fun x => negb (p x)) l) + length (filter p l) = length l)%nat.
  Proof.
    induction l as [|x l IH]; [reflexivity|].
    cbn [filter]. destruct (p x); cbn [negb length]; rewrite <- IH; [symmetry; apply plus_n_Sm|reflexivity].
  Qed.
End FilterFacts.

Lemma having_exact : forall idx c bound rows r,
  In r (having_spec idx c bound rows) <-> In r rows /\ hsat c (nth idx (o_vals r) 0%Q) bound = true.
Proof. intros. apply filter_In. Qed.

Lemma having_subsequence : forall idx c bound rows,
  exists keep, having_spec idx c bound rows = map snd (filter fst (combine keep rows)) /\ length keep = length rows.
Proof. intros idx c bound rows. eexists. split; [apply filter_mask|apply map_length]. Qed.

Lemma having_idempotent : forall idx c bound rows,
  having_spec idx c bound (having_spec idx c bound rows) = having_spec idx c bound rows.
Proof. intros. apply filter_idem. Qed.

Lemma having_all_or_nothing : forall idx c bound rows,
  (forall r, In r rows -> hsat c (nth idx (o_vals r) 0%Q) bound = true) -> having_spec idx c bound rows = rows.
Proof. intros idx c bound rows. apply filter_all. Qed.

(* complementary predicates split the rows: nothing is lost, nothing appears twice.
   [hsat HGt x b] computes to [negb (hsat HLe x b)], so this is filter_split_length at the HLe predicate. *)
Lemma having_partition : forall idx bound rows,
  (length (having_spec idx HGt bound rows) + length (having_spec idx HLe bound rows) = length rows)%nat.
Proof. intros idx bound rows. exact (filter_split_length (fun r => hsat HLe (nth idx (o_vals r) 0%Q) bound) rows). Qed.
