(* ReportP.v — a scan that omits rows reports an error (C13) *)
From Coq Require Import Lia.
From Zeno Require Import Base Report.

Section P.
Variable R : Type.

Lemma deliver_complete : forall (rows:list R) n k d e m, deliver R rows n k = (d, e, m) ->
  e = false -> d = rows /\ m = (n + length rows)%nat.
Proof.
  induction rows as [|r rest IH]; intros n k d e m H He; cbn [deliver] in H.
  - injection H as <- _ <-. split; [reflexivity|apply plus_n_O].
  - destruct (Nat.leb k (S n)); [congruence|].
    destruct (deliver R rest (S n) k) as [[d' e'] m'] eqn:E. injection H as <- <- <-.
    destruct (IH (S n) k d' e' m' E He) as [-> ->]. split; [reflexivity|cbn [length]; lia].
Qed.

(* if the scan reports no error it delivered every row of the file and of the memstore *)
Theorem scan_no_error_complete : forall (file mem:list R) k d, scan R file mem k = (d, false) -> d = file ++ mem.
Proof.
  intros file mem [k|] d H; cbn [scan] in H; [|inversion H; reflexivity].
  destruct (deliver R file 0 k) as [[d1 e1] n1] eqn:E1. destruct e1; [inversion H|].
  destruct (deliver R mem n1 k) as [[d2 e2] n2] eqn:E2. inversion H; subst.
  destruct (deliver_complete file 0 k d1 false n1 E1 eq_refl) as [-> _].
  destruct (deliver_complete mem n1 k d2 false n2 E2 eq_refl) as [-> _]. reflexivity.
Qed.

Corollary scan_omission_is_reported : forall (file mem:list R) k,
  fst (scan R file mem k) <> file ++ mem -> snd (scan R file mem k) = true.
Proof.
  intros file mem k H. destruct (scan R file mem k) as [d e] eqn:E. cbn [fst snd] in *.
  destruct e; [reflexivity|]. exfalso. apply H. apply (scan_no_error_complete file mem k d E).
Qed.
End P.

(* the shipped scan dropped the memstore walk's error: rows omitted, nil error *)
Example legacy_scan_refuted : scan_legacy nat [1; 2]%nat [3; 4; 5]%nat (Some 3%nat) = ([1; 2; 3]%nat, false).
Proof. reflexivity. Qed.
Example repaired_scan_reports : scan nat [1; 2]%nat [3; 4; 5]%nat (Some 3%nat) = ([1; 2; 3]%nat, true).
Proof. reflexivity. Qed.
