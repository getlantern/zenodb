(* SeqP.v — proofs about Model/Seq.v: Truncate keeps exactly the periods in (asOf, until] (C04, C05, C07) *)
From Coq Require Import Lia.
From Zeno Require Import Base BaseP Seq.
Open Scope Z_scope.

Section P.
Variable cell : Type.

Lemma nthc_firstn : forall (l:list cell) n i,
  nthc i (firstn n l) = if (i <? n)%nat then nthc i l else None.
Proof.
  induction l as [|x l IH]; intros n i.
  - rewrite firstn_nil. destruct i; simpl; destruct (_ <? _)%nat; reflexivity.
  - destruct n as [|n]; simpl.
    + destruct i; reflexivity.
    + destruct i as [|i]; simpl; [reflexivity|]. rewrite IH.
      change (S i <? S n)%nat with (i <? n)%nat. reflexivity.
Qed.

Lemma nthc_skipn : forall (l:list cell) n i, nthc i (skipn n l) = nthc (n + i) l.
Proof.
  induction l as [|x l IH]; intros n i.
  - rewrite skipn_nil. destruct (n + i)%nat; destruct i; reflexivity.
  - destruct n as [|n]; simpl; [reflexivity|]. apply IH.
Qed.

Lemma nthc_beyond : forall (l:list cell) i, (length l <= i)%nat -> nthc i l = None.
Proof. induction l as [|x l IH]; intros i H; destruct i; simpl in *; try reflexivity; try lia. apply IH; lia. Qed.

(* the same three facts for Z indices, through the bridges of BaseP *)
Lemma nthz_firstz : forall (l:list cell) n i, nthz i (firstz n l) = if i <? n then nthz i l else None.
Proof.
  intros l n i. destruct (Z.ltb_spec i 0).
  - rewrite !nthz_neg by assumption. destruct (i <? n); reflexivity.
  - rewrite !nthz_nthc, firstz_firstn, nthc_firstn by assumption.
    destruct (Z.ltb_spec i n); destruct (Nat.ltb_spec (Z.to_nat i) (Z.to_nat n)); try reflexivity; lia.
Qed.
Lemma nthz_skipz : forall (l:list cell) n i, 0 <= i -> nthz i (skipz n l) = nthz (Z.max 0 n + i) l.
Proof. intros l n i Hi. rewrite !nthz_nthc, skipz_skipn, nthc_skipn by lia. f_equal. lia. Qed.
Lemma nthz_beyond : forall (l:list cell) i, Z.of_nat (length l) <= i -> nthz i l = None.
Proof. intros l i H. rewrite nthz_nthc by lia. apply nthc_beyond. lia. Qed.

Lemma cdiv_spec a b : 0 < b -> let q := cdiv a b in (q - 1) * b < a <= q * b.
Proof. intros Hb q. unfold q, cdiv. pose proof (div_grid (- a) b Hb). lia. Qed.

(* rud and ruu in lemma names abbreviate round_until_down and round_until_up *)
Lemma rud_spec ts res u : 0 < res -> ts <> 0 -> u <> 0 ->
  let r := round_until_down ts res u in r <= ts < r + res /\ exists k, r = u - k * res.
Proof.
  intros Hr Hts Hu r. unfold r, round_until_down, is_zero.
  destruct (Z.eqb_spec ts 0); [contradiction|]. destruct (Z.eqb_spec u 0); [contradiction|].
  pose proof (cdiv_spec (u - ts) res Hr) as H. cbv zeta in H. split; [lia|]. eexists; reflexivity.
Qed.

Lemma den_some : forall res u (cs:list cell) t, 0 < res ->
  den cell res (Some (u, cs)) t =
    if (t <=? u) && ((u - t) mod res =? 0) then nthc (Z.to_nat ((u - t) / res)) cs else None.
Proof.
  intros res u cs t Hr. unfold den.
  destruct (Z.leb_spec 0 (u - t)); destruct (Z.leb_spec t u); try lia; simpl; [|reflexivity].
  rewrite Z.rem_mod_nonneg by lia. rewrite nthz_nthc by (apply Z.div_pos; lia). reflexivity.
Qed.

(* The grid of a sequence is the set of its period ends u - j * res.  Each statement about den below is
   proved by asking once whether t is such a point; div and mod occur in the next three lemmas and
   nowhere after them. *)
Lemma on_grid_dec : forall res u t, 0 < res -> (exists j, t = u - j * res) \/ (forall j, t <> u - j * res).
Proof.
  intros res u t Hr. destruct (Z.eq_dec ((u - t) mod res) 0) as [E|N].
  - left. exists ((u - t) / res). pose proof (Z.div_mod (u - t) res ltac:(lia)). lia.
  - right. intros j ->. apply N. replace (u - (u - j * res)) with (j * res) by lia. apply Z.mod_mul. lia.
Qed.

Lemma den_on : forall res u (cs:list cell) t i, 0 < res -> u - t = i * res ->
  den cell res (Some (u, cs)) t = nthz i cs.
Proof.
  intros res u cs t i Hr E. unfold den. rewrite E.
  destruct (Z.leb_spec 0 (i * res)); cbn [andb].
  - rewrite Z.rem_mul, Z.div_mul by lia. reflexivity.
  - symmetry. apply nthz_neg. nia.
Qed.

Lemma den_off : forall res u0 u k (cs:list cell) t, 0 < res -> (forall j, t <> u0 - j * res) -> u = u0 - k * res ->
  den cell res (Some (u, cs)) t = None.
Proof.
  intros res u0 u k cs t Hr Off ->. rewrite den_some by assumption.
  destruct (Z.eqb_spec ((u0 - k * res - t) mod res) 0) as [E|N]; [|rewrite andb_false_r; reflexivity].
  exfalso. apply (Off ((u0 - k * res - t) / res + k)).
  pose proof (Z.div_mod (u0 - k * res - t) res ltac:(lia)). lia.
Qed.

(* a bound a and its rounding a' down to the grid lie below the same grid points *)
Lemma bound_ltb : forall res u a a' k j, 0 < res -> a' <= a < a' + res -> a' = u - k * res ->
  (a <? u - j * res) = (j <? k).
Proof.
  intros res u a a' k j Hr Ha ->.
  destruct (Z.ltb_spec a (u - j * res)); destruct (Z.ltb_spec j k); try reflexivity; exfalso; nia.
Qed.

Lemma quot_grid : forall res x q, 0 < res -> x = q * res -> Z.quot x res = q.
Proof. intros res x q Hr ->. apply Z.quot_mul. lia. Qed.

(* The asOf step of Truncate, for any sequence start u0.  The second hypothesis relates the bound asOf to
   its rounding asOf' on the grid of u0: both are 0 (0 stands for "no bound" and is rounded to 0), or
   neither is and asOf' is the grid point less than a period below asOf.  until_step_den asks the same of
   until and until'; rud_rounds supplies both. *)
Lemma asof_step : forall res u0 (cs1:list cell) asOf asOf' t, 0 < res ->
  (asOf = 0 /\ asOf' = 0 \/ asOf <> 0 /\ asOf' <> 0 /\ asOf' <= asOf < asOf' + res /\ exists k, asOf' = u0 - k * res) ->
  den cell res (if is_zero asOf' then Some (u0, cs1)
                else if Z.quot (u0 - asOf') res <=? 0 then None
                else Some (u0, firstz (Z.quot (u0 - asOf') res) cs1)) t =
  if (asOf =? 0) || (asOf <? t) then den cell res (Some (u0, cs1)) t else None.
Proof.
  intros res u0 cs1 asOf asOf' t Hr H. unfold is_zero.
  destruct H as [[-> ->]|[Han [Ha0 [Ha'1 [ka Ha'2]]]]]; [reflexivity|].
  rewrite (proj2 (Z.eqb_neq asOf' 0) Ha0), (proj2 (Z.eqb_neq asOf 0) Han). cbn [orb].
  rewrite (quot_grid res (u0 - asOf') ka) by lia.
  destruct (on_grid_dec res u0 t Hr) as [[j ->]|Off].
  - rewrite (bound_ltb res u0 asOf asOf' ka j) by assumption.
    rewrite (den_on res u0 cs1 _ j) by lia.
    destruct (Z.leb_spec ka 0).
    + destruct (Z.ltb_spec j ka); [|reflexivity]. symmetry. apply nthz_neg. lia.
    + rewrite (den_on res u0 _ _ j) by lia. apply nthz_firstz.
  - (* off the grid both sides are None *)
    transitivity (@None cell).
    + destruct (_ <=? 0); [reflexivity|]. apply (den_off res u0 u0 0); assumption || lia.
    + rewrite (den_off res u0 u0 0 cs1) by (assumption || lia). destruct (asOf <? t); reflexivity.
Qed.

(* the until step of Truncate ([step1] of Seq.truncate) *)
Definition until_step (u:Z) (cs:list cell) (res until':Z) : option (Z * list cell) :=
  if is_zero until' then Some (u, cs) else
    let ptr := Z.quot (u - until') res in
    if 0 <? ptr then (if Z.of_nat (length cs) <=? ptr then None else Some (until', skipz ptr cs))
    else Some (u, cs).

Lemma until_step_den : forall res u (cs:list cell) until until' t, 0 < res ->
  (until = 0 /\ until' = 0 \/ until <> 0 /\ until' <> 0 /\ until' <= until < until' + res /\ exists k, until' = u - k * res) ->
  den cell res (until_step u cs res until') t =
  if (until =? 0) || (t <=? until) then den cell res (Some (u, cs)) t else None.
Proof.
  intros res u cs until until' t Hr H.
  destruct H as [[-> ->]|[Hun [Hu0 [Hu1 [ku Hu2]]]]]; [reflexivity|]. unfold until_step, is_zero.
  rewrite (proj2 (Z.eqb_neq until' 0) Hu0), (proj2 (Z.eqb_neq until 0) Hun). cbn [orb].
  rewrite (quot_grid res (u - until') ku) by lia. rewrite (Z.leb_antisym until t).
  destruct (on_grid_dec res u t Hr) as [[j ->]|Off].
  - rewrite (bound_ltb res u until until' ku j) by assumption.
    rewrite (den_on res u cs _ j) by lia.
    destruct (Z.ltb_spec j ku); cbn [negb].
    + (* t lies above until *)
      destruct (Z.ltb_spec 0 ku).
      * (* what is left, if anything, starts at until', below t *)
        (* [case] where no hypothesis mentions the test: it does not re-type the goal as [destruct] does *)
        case (_ <=? ku); [reflexivity|]. rewrite (den_on res until' _ _ (j - ku)) by lia. apply nthz_neg. lia.
      * (* nothing is cut, and t lies above the start *)
        rewrite (den_on res u cs _ j) by lia. apply nthz_neg. lia.
    + (* t lies at or below until *)
      destruct (Z.ltb_spec 0 ku).
      * (* ku periods are cut: what is left is indexed from until' *)
        destruct (Z.leb_spec (Z.of_nat (length cs)) ku).
        -- symmetry. apply nthz_beyond. lia.
        -- rewrite (den_on res until' _ _ (j - ku)) by lia. rewrite nthz_skipz by lia. f_equal. lia.
      * apply (den_on res u cs _ j); lia.
  - (* off the grid both sides are None, whatever is left of the sequence *)
    transitivity (@None cell).
    + case (0 <? ku); [case (_ <=? ku); [reflexivity|]|].
      * apply (den_off res u until' ku); assumption.
      * apply (den_off res u u 0); assumption || lia.
    + rewrite (den_off res u u 0 cs) by (assumption || lia). case (negb _); reflexivity.
Qed.

Lemma truncate_unfold : forall (u:Z) (cs:list cell) res asOf until,
  truncate cell (Some (u, cs)) res asOf until =
  match until_step u cs res (round_until_down until res u) with
  | None => None
  | Some (u0, cs1) =>
    let asOf' := round_until_down asOf res u in
    if is_zero asOf' then Some (u0, cs1)
    else if Z.quot (u0 - asOf') res <=? 0 then None
    else Some (u0, firstz (Z.quot (u0 - asOf') res) cs1)
  end.
Proof. reflexivity. Qed.

Lemma until_step_start : forall u (cs:list cell) res until' u0 cs1,
  until_step u cs res until' = Some (u0, cs1) -> u0 = u \/ (u0 = until' /\ until' <> 0).
Proof.
  intros u cs res until' u0 cs1. unfold until_step, is_zero.
  destruct (Z.eqb_spec until' 0); [intros [= <- <-]; auto|].
  destruct (0 <? _); [destruct (_ <=? _); [discriminate|intros [= <- <-]; auto]|intros [= <- <-]; auto].
Qed.

(* what the two steps ask of a bound and its rounding, supplied by [rud_spec] *)
Lemma rud_rounds : forall res a u, 0 < res -> (a = 0 \/ res <= a) -> u <> 0 ->
  a = 0 /\ round_until_down a res u = 0 \/
  a <> 0 /\ round_until_down a res u <> 0 /\
  round_until_down a res u <= a < round_until_down a res u + res /\ exists k, round_until_down a res u = u - k * res.
Proof.
  intros res a u Hr [->|Ha] Hu; [left; split; reflexivity|right].
  destruct (rud_spec a res u Hr ltac:(lia) Hu) as [A B]. repeat split; try lia; exact B.
Qed.

(* A bound is 0, which stands for "no bound", or at least res, so that its rounding is not 0 and is not
   taken for "no bound"; the start of a sequence is the end of a period, hence at least res as well
   (what the proof uses is u <> 0).  truncate_den_above in SeqMergeP.v treats the bounds in (0, res). *)
Theorem truncate_den : forall (s:seq cell) res asOf until t, 0 < res ->
  (asOf = 0 \/ res <= asOf) -> (until = 0 \/ res <= until) -> (forall u cs, s = Some (u, cs) -> res <= u) ->
  den cell res (truncate cell s res asOf until) t =
  if ((asOf =? 0) || (asOf <? t)) && ((until =? 0) || (t <=? until)) then den cell res s t else None.
Proof.
  intros s res asOf until t Hr HA HU Hs.
  destruct s as [[u cs]|]; [|cbn; destruct (_ && _); reflexivity].
  specialize (Hs u cs eq_refl). assert (Hu0 : u <> 0) by lia.
  pose proof (rud_rounds res until u Hr HU Hu0) as HUN. pose proof (rud_rounds res asOf u Hr HA Hu0) as HAS.
  rewrite truncate_unfold.
  pose proof (until_step_den res u cs until _ t Hr HUN) as HS.
  destruct (until_step u cs res (round_until_down until res u)) as [[u0 cs1]|] eqn:E.
  - cbv zeta.
    rewrite (asof_step res u0 cs1 asOf (round_until_down asOf res u) t Hr).
    + rewrite HS. case ((asOf =? 0) || (asOf <? t)); case ((until =? 0) || (t <=? until)); reflexivity.
    + (* asOf' is on the grid of u0 as well: u0 is u or until' *)
      destruct HAS as [?|[A1 [A2 [[A3 A3'] [ka A4]]]]]; [left; assumption|right]. repeat split; try assumption.
      destruct (until_step_start _ _ _ _ _ _ E) as [->|[-> Hne]]; [exists ka; exact A4|].
      destruct HUN as [[_ Z0]|[_ [_ [_ [ku Hku]]]]]; [contradiction|]. exists (ka - ku). rewrite A4, Hku. lia.
  - change (den cell res None t) with (@None cell) in *.
    case ((asOf =? 0) || (asOf <? t)); cbn [andb]; [exact HS|reflexivity].
Qed.
End P.
