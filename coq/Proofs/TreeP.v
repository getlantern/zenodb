(* TreeP.v — the radix tree of bytetree (Model/Tree.v) is a finite map from keys to data.
   Everything is read off one listing of a tree, dd_n: its data nodes, each as (path from the
   root, stored key, data).  An Update patches the listing at one path, in every tree.  In a
   well-formed tree (wf_n, kept by Update, Remove and Copy) the paths are pairwise different, the
   stored keys are the paths, and the lookup finds exactly the node at a path: the listing is a
   finite map.  Remove, Walk and fileStore.iterate are read off the same listing with a removal
   flag per entry (dx_n). *)
From Coq Require Import Lia Permutation.
From Zeno Require Import Base ListP BaseP Tree.

Set Implicit Arguments.
Arguments n_key {D}. Arguments n_data {D}. Arguments n_removed {D}. Arguments n_edges {D}.
Arguments elist {D}. Arguments eapp {D}. Arguments set_data {D}. Arguments leaf {D}. Arguments split {D}.
Arguments upd_n {D}. Arguments upd_es {D}. Arguments was_removed {D}. Arguments do_remove {D}.
Arguments rem_n {D}. Arguments rem_es {D}. Arguments find_n {D}. Arguments find_es {D}.
Arguments size_n {D}. Arguments size_es {D}. Arguments bfs {D}. Arguments bfs_nodes {D}.
Arguments walk_list {D}. Arguments t_root {D}. Arguments t_len {D}. Arguments tnew {D}.
Arguments tupdate_with {D}. Arguments tupdate {D}. Arguments tremove {D}. Arguments twalk {D}.
Arguments copy_n {D}. Arguments copy_es {D}. Arguments tcopy {D}. Arguments tfind {D}. Arguments tremoved {D}.
Arguments remove_all {D}. Arguments iterate_keys {D}.

Lemma cpl_le_l (a b:list Z) : (cpl a b <= length a)%nat.
Proof. revert b; induction a as [|x a IH]; intros [|y b]; simpl; try apply Nat.le_0_l. destruct (x =? y); [apply le_n_S, IH|apply Nat.le_0_l]. Qed.
Lemma cpl_le_r (a b:list Z) : (cpl a b <= length b)%nat.
Proof. revert b; induction a as [|x a IH]; intros [|y b]; simpl; try apply Nat.le_0_l. destruct (x =? y); [apply le_n_S, IH|apply Nat.le_0_l]. Qed.
Lemma cpl_app (p a b:list Z) : cpl (p ++ a) (p ++ b) = (length p + cpl a b)%nat.
Proof. induction p as [|x p IH]; simpl; [reflexivity|]. rewrite Z.eqb_refl, IH. reflexivity. Qed.
Lemma cpl_nil_r (a:list Z) : cpl a [] = O.
Proof. destruct a; reflexivity. Qed.
Lemma cpl_firstn (a b:list Z) : firstn (cpl a b) a = firstn (cpl a b) b.
Proof.
  revert b; induction a as [|x a IH]; intros [|y b]; simpl; try reflexivity.
  destruct (Z.eqb_spec x y); simpl; [subst; f_equal; apply IH | reflexivity].
Qed.
Lemma cpl_skip_zero (a b:list Z) : cpl (skipn (cpl a b) a) (skipn (cpl a b) b) = O.
Proof.
  revert b; induction a as [|x a IH]; intros [|y b]; simpl; try reflexivity.
  - destruct (Z.eqb_spec x y); simpl; [apply IH|]. destruct (Z.eqb_spec x y); [contradiction|reflexivity].
Qed.
Lemma cpl_zero_cons (x y:Z) (a b:list Z) : cpl (x :: a) (y :: b) = O -> x <> y.
Proof. simpl. destruct (Z.eqb_spec x y); [discriminate | auto]. Qed.
Lemma cpl_zero_heads (a b:list Z) : a <> [] -> b <> [] -> cpl a b = O -> hd 0 a <> hd 0 b.
Proof. destruct a as [|x a], b as [|y b]; try congruence. intros _ _ H. simpl. eapply cpl_zero_cons; eauto. Qed.
Lemma heads_cpl_zero (a b:list Z) : hd 0 a <> hd 0 b -> cpl a b = O.
Proof. destruct a as [|x a], b as [|y b]; simpl; try reflexivity. intros H. destruct (Z.eqb_spec x y); congruence. Qed.

Definition is_exact (lbl key:list Z) : bool := Nat.eqb (cpl lbl key) (length key) && Nat.eqb (length key) (length lbl).
Definition is_desc (lbl key:list Z) : bool := Nat.eqb (cpl lbl key) (length lbl) && Nat.ltb (length lbl) (length key).
Definition is_split (lbl key:list Z) : bool := Nat.ltb 0 (cpl lbl key).

(* the view: label and key relate in exactly one of four ways, and the three tests of the edge loops
   (the indices) say which.  The loops try the tests in this order and stop at the first true one,
   so the tests after it are left free (forall d s, forall s). *)
Inductive view (lbl key:list Z) : bool -> bool -> bool -> Type :=
| VExact : key = lbl -> forall d s, view lbl key true d s
| VDesc (r:list Z) : r <> [] -> key = lbl ++ r -> forall s, view lbl key false true s
| VSplit (p l2 k2:list Z) : p <> [] -> l2 <> [] -> lbl = p ++ l2 -> key = p ++ k2 -> cpl l2 k2 = O -> view lbl key false false true
| VMiss : lbl <> [] -> cpl lbl key = O -> view lbl key false false false.
Arguments VExact {lbl key} _ d s. Arguments VDesc {lbl key} r _ _ s.
Arguments VSplit {lbl key} p l2 k2 _ _ _ _ _. Arguments VMiss {lbl key} _ _.

Lemma cpl_self_app (l r:list Z) : cpl l (l ++ r) = length l.
Proof. rewrite <- (app_nil_r l) at 1. rewrite cpl_app. apply Nat.add_0_r. Qed.
Lemma cpl_self (l:list Z) : cpl l l = length l.
Proof. rewrite <- (cpl_self_app l []), app_nil_r. reflexivity. Qed.

(* One more common byte leaves the tests as they are, except that a miss becomes a split. *)
Lemma view_of (lbl key:list Z) : view lbl key (is_exact lbl key) (is_desc lbl key) (is_split lbl key).
Proof.
  revert key; induction lbl as [|x a IH]; intros [|y b].
  - apply VExact. reflexivity.
  - apply (VDesc (y :: b)); [discriminate|reflexivity].
  - apply VMiss; [discriminate|reflexivity].
  - unfold is_exact, is_desc, is_split. cbn [cpl length]. destruct (Z.eqb_spec x y) as [<-|N].
    + change (view (x :: a) (x :: b) (is_exact a b) (is_desc a b) true).
      destruct (IH b) as [E d s | r Hr E s | p l2 k2 Hp Hl El Ek H0 | Hl H0].
      * apply VExact. rewrite E; reflexivity.
      * apply (VDesc r); [exact Hr|rewrite E; reflexivity].
      * apply (VSplit (x :: p) l2 k2); [discriminate|exact Hl|rewrite El; reflexivity|rewrite Ek; reflexivity|exact H0].
      * apply (VSplit [x] a b); [discriminate|exact Hl|reflexivity|reflexivity|exact H0].
    + apply VMiss; [discriminate|]. simpl. destruct (Z.eqb_spec x y); [contradiction|reflexivity].
Qed.

Section TreeP.
Variable D : Type.
Notation node := (node D).
Notation edges := (edges D).
Notation setter := (setter D).

Scheme node_mind := Induction for Tree.node Sort Prop
  with edges_mind := Induction for Tree.edges Sort Prop.
Combined Scheme node_edges_ind from node_mind, edges_mind.

(* a node is its edges: key, data and marks play no part in the recursion *)
Lemma edges_nest_ind (P:edges -> Prop) :
  P ENil -> (forall l t r, P (n_edges t) -> P r -> P (ECons l t r)) -> forall es, P es.
Proof.
  intros H0 H1.
  exact (proj2 (node_edges_ind (fun n => P (n_edges n)) P (fun _ _ _ _ IH => IH) H0 (fun l t IHt r IHr => H1 l t r IHt IHr))).
Qed.

(* The edge loops of Update, Remove and the lookup: with their tests named (_unfold), then with one
   branch per way of relating (_view).  view_of is opaque: a _view equation is used by rewriting
   with it and destructing view_of l key. *)
Lemma upd_es_unfold (sd:setter) f full key lbl t rest :
  upd_es sd f full key (ECons lbl t rest) =
  if is_exact lbl key then let '(t', c) := sd f full t in Some (ECons lbl t' rest, c)
  else if is_desc lbl key then let '(t', c) := upd_n sd f full (skipn (length lbl) key) t in Some (ECons lbl t' rest, c)
  else if is_split lbl key then let '(l', t') := split f full key (cpl lbl key) lbl t in Some (ECons l' t' rest, true)
  else match upd_es sd f full key rest with Some (rest', c) => Some (ECons lbl t rest', c) | None => None end.
Proof. reflexivity. Qed.

Lemma upd_n_unfold (sd:setter) f full key k d r es :
  upd_n sd f full key (Node k d r es) =
  match upd_es sd f full key es with
  | Some (es', c) => (Node k d r es', c)
  | None => (Node k d r (eapp es key (leaf f full)), true) end.
Proof. reflexivity. Qed.

Lemma find_n_eq key (n:node) : find_n key n = find_es key (n_edges n).
Proof. destruct n; reflexivity. Qed.

Lemma find_es_unfold key lbl (t:node) rest :
  find_es key (ECons lbl t rest) =
  if is_exact lbl key then Some t
  else if is_desc lbl key then find_es (skipn (length lbl) key) (n_edges t)
  else if is_split lbl key then None else find_es key rest.
Proof. destruct t; reflexivity. Qed.

Lemma rem_es_unfold ctx key lbl (t:node) rest :
  rem_es ctx key (ECons lbl t rest) =
  if is_exact lbl key then
    if was_removed ctx t then (ECons lbl t rest, None) else (ECons lbl (do_remove ctx t) rest, n_data t)
  else if is_desc lbl key then let '(t', o) := rem_n ctx (skipn (length lbl) key) t in (ECons lbl t' rest, o)
  else let '(rest', o) := rem_es ctx key rest in (ECons lbl t rest', o).
Proof. reflexivity. Qed.

Lemma split_eq f full (p l2 k2:list Z) (t:node) :
  split f full (p ++ k2) (length p) (p ++ l2) t =
  match k2 with
  | [] => (p, Node full (Some (f None)) [] (ECons l2 t ENil))
  | _ => (p, Node [] None [] (ECons l2 t (ECons k2 (leaf f full) ENil)))
  end.
Proof.
  unfold split. rewrite firstn_app_exact, !skipn_app_exact, app_length.
  destruct k2 as [|z k2]; simpl length.
  - rewrite Nat.add_0_r, Nat.eqb_refl. reflexivity.
  - replace (Nat.eqb (length p) (length p + S (length k2))) with false; [reflexivity|].
    symmetry. apply Nat.eqb_neq. lia.
Qed.

Lemma find_es_view key l (t:node) r :
  find_es key (ECons l t r) =
  match view_of l key with
  | VExact _ _ _ => Some t
  | VDesc s _ _ _ => find_es s (n_edges t)
  | VSplit _ _ _ _ _ _ _ _ => None
  | VMiss _ _ => find_es key r
  end.
Proof.
  rewrite find_es_unfold. destruct (view_of l key) as [E | s Hs E | p l2 k2 Hp Hl El Ek H0 | Hl H0]; try reflexivity.
  subst key. rewrite skipn_app_exact. reflexivity.
Qed.

Lemma upd_es_view sd f full key l (t:node) r :
  upd_es sd f full key (ECons l t r) =
  match view_of l key with
  | VExact _ _ _ => let '(t', c) := sd f full t in Some (ECons l t' r, c)
  | VDesc s _ _ _ => let '(t', c) := upd_n sd f full s t in Some (ECons l t' r, c)
  | VSplit p l2 k2 _ _ _ _ _ =>
      Some (ECons p match k2 with
                    | [] => Node full (Some (f None)) [] (ECons l2 t ENil)
                    | _ => Node [] None [] (ECons l2 t (ECons k2 (leaf f full) ENil))
                    end r, true)
  | VMiss _ _ => match upd_es sd f full key r with Some (r', c) => Some (ECons l t r', c) | None => None end
  end.
Proof.
  rewrite upd_es_unfold. destruct (view_of l key) as [E | s Hs E | p l2 k2 Hp Hl El Ek H0 | Hl H0]; try reflexivity.
  - subst key. rewrite skipn_app_exact. reflexivity.
  - subst l key. rewrite cpl_app, H0, Nat.add_0_r, split_eq. destruct k2; reflexivity.
Qed.

Lemma rem_n_unfold ctx key k d r es :
  rem_n ctx key (@Node D k d r es) = let '(es', o) := rem_es ctx key es in (@Node D k d r es', o).
Proof. reflexivity. Qed.

(* what Remove hands back at the node the lookup finds: nothing if this context removed it before *)
Definition found_data ctx (o:option node) : option D :=
  match o with Some n => if was_removed ctx n then None else n_data n | None => None end.

(* Remove's loop has no split branch: a partly matching edge is passed like a missing one *)
Lemma rem_es_view ctx key l (t:node) r :
  rem_es ctx key (ECons l t r) =
  match view_of l key with
  | VExact _ _ _ => (ECons l (if was_removed ctx t then t else do_remove ctx t) r, found_data ctx (Some t))
  | VDesc s _ _ _ => let '(t', o) := rem_n ctx s t in (ECons l t' r, o)
  | _ => let '(r', o) := rem_es ctx key r in (ECons l t r', o)
  end.
Proof.
  rewrite rem_es_unfold. destruct (view_of l key) as [E | s Hs E | p l2 k2 Hp Hl El Ek H0 | Hl H0]; try reflexivity.
  - cbn [found_data]. destruct (was_removed ctx t); reflexivity.
  - subst key. rewrite skipn_app_exact. reflexivity.
Qed.

(* The data nodes of a tree, each as (path from the root, stored key, data).  own reads only a
   node's key and data, and dd_n hands it a node rebuilt from these two fields; dd_n_eq states
   dd_n on the node itself (dx_n_eq and was_removed_eq do the same for the flagged listing dx_n). *)
Definition entry : Type := list Z * list Z * D.
Definition e_path (e:entry) : list Z := fst (fst e).

Definition own (path:list Z) (n:node) : list entry :=
  match n_data n with Some x => [(path, n_key n, x)] | None => [] end.
Fixpoint dd_n (path:list Z) (n:node) {struct n} : list entry :=
  match n with Node k d _ es => own path (Node k d [] ENil) ++ dd_es path es end
with dd_es (path:list Z) (es:edges) {struct es} : list entry :=
  match es with ENil => [] | ECons l t r => dd_n (path ++ l) t ++ dd_es path r end.

Lemma dd_n_eq path (n:node) : dd_n path n = own path n ++ dd_es path (n_edges n).
Proof. destruct n; reflexivity. Qed.

(* What one Update does to a listing, in every tree: at path pk it maps the data through f (index
   false), or puts in an entry with stored key full and data f None (index true).  The index is
   Update's "new key" result, which Length counts. *)
Inductive patched (pk full:list Z) (f:option D -> D) (l l':list entry) : bool -> Prop :=
| p_mod l1 k d l2 : l = l1 ++ (pk, k, d) :: l2 -> l' = l1 ++ (pk, k, f (Some d)) :: l2 -> patched pk full f l l' false
| p_ins l1 l2 : l = l1 ++ l2 -> l' = l1 ++ (pk, full, f None) :: l2 -> patched pk full f l l' true.

Lemma patched_ctx pk full f l l' c a b : patched pk full f l l' c -> patched pk full f (a ++ l ++ b) (a ++ l' ++ b) c.
Proof.
  intros [l1 k d l2 E1 E2 | l1 l2 E1 E2]; subst.
  - apply p_mod with (l1:=a ++ l1) (k:=k) (d:=d) (l2:=l2 ++ b); rewrite <- 2 app_assoc; reflexivity.
  - apply p_ins with (l1:=a ++ l1) (l2:=l2 ++ b); rewrite <- 2 app_assoc; reflexivity.
Qed.
Lemma patched_r pk full f l l' c b : patched pk full f l l' c -> patched pk full f (l ++ b) (l' ++ b) c.
Proof. intros H. apply (patched_ctx [] b H). Qed.
Lemma patched_l pk full f l l' c a : patched pk full f l l' c -> patched pk full f (a ++ l) (a ++ l') c.
Proof. intros H. pose proof (patched_ctx a [] H) as P. rewrite !app_nil_r in P. exact P. Qed.

Lemma dd_eapp path (es:edges) l t : dd_es path (eapp es l t) = dd_es path es ++ dd_n (path ++ l) t.
Proof. induction es as [|l' t' r IH]; simpl; [rewrite app_nil_r; reflexivity|]. rewrite IH, app_assoc. reflexivity. Qed.

Lemma set_data_patched f full path (t:node) :
  let '(t', c) := set_data f full t in patched path full f (dd_n path t) (dd_n path t') c.
Proof.
  destruct t as [k [d|] r es]; simpl.
  - apply p_mod with (l1:=[]) (k:=k) (d:=d) (l2:=dd_es path es); reflexivity.
  - apply p_ins with (l1:=[]) (l2:=dd_es path es); reflexivity.
Qed.

Lemma upd_patched :
  (forall n:node, forall f full key path,
     let '(n', c) := upd_n set_data f full key n in patched (path ++ key) full f (dd_n path n) (dd_n path n') c)
  /\ (forall es:edges, forall f full key path,
     match upd_es set_data f full key es with
     | Some (es', c) => patched (path ++ key) full f (dd_es path es) (dd_es path es') c
     | None => True end).
Proof.
  apply node_edges_ind.
  - intros k d r es IH f full key path. rewrite upd_n_unfold. specialize (IH f full key path).
    destruct (upd_es set_data f full key es) as [[es' c]|].
    + simpl. apply patched_l. exact IH.
    + simpl. rewrite dd_eapp. apply patched_l.
      apply p_ins with (l1:=dd_es path es) (l2:=[]); [rewrite app_nil_r; reflexivity|]. reflexivity.
  - intros; exact I.
  - intros l t IHt r IHr f full key path. rewrite upd_es_view.
    destruct (view_of l key) as [E | s Hs E | p l2 k2 Hp Hl El Ek H0 | Hl H0].
    + subst key. pose proof (set_data_patched f full (path ++ l) t) as S.
      destruct (set_data f full t) as [t' c]. simpl. apply patched_r. exact S.
    + subst key. specialize (IHt f full s (path ++ l)). destruct (upd_n set_data f full s t) as [t' c].
      simpl. apply patched_r. rewrite <- app_assoc in IHt. exact IHt.
    + (* split: the new entry goes before what was below the edge, or after it *)
      subst l key. cbn [dd_es]. apply patched_r. destruct k2 as [|z k2]; simpl; rewrite ?app_nil_r, <- ?app_assoc.
      * apply p_ins with (l1:=[]) (l2:=dd_n (path ++ p ++ l2) t); reflexivity.
      * apply p_ins with (l1:=dd_n (path ++ p ++ l2) t) (l2:=[]); [rewrite app_nil_r; reflexivity|reflexivity].
    + specialize (IHr f full key path). destruct (upd_es set_data f full key r) as [[r' c]|]; [|exact I].
      simpl. apply patched_l. exact IHr.
Qed.

(* Well-formed trees.  Labels below one node start with pairwise different bytes; the empty label
   occurs only at the root, as its last edge (the node of the empty key: every key the edges
   before it do not take descends into it, so what lies below it starts with other bytes than
   those edges); a node with data stores the path that leads to it.
   lheads: the first bytes of the labels.  rheads: the first bytes an edge list routes somewhere;
   an empty label takes every key, so it stands for the heads of its target's edges. *)
Definition lheads (es:edges) : list Z := map (fun e => hd 0 (fst e)) (elist es).
Fixpoint rheads (es:edges) : list Z :=
  match es with
  | ENil => []
  | ECons [] t r => lheads (n_edges t) ++ rheads r
  | ECons (x :: _) _ r => x :: rheads r
  end.

Fixpoint wf_n (path:list Z) (n:node) {struct n} : Prop :=
  match n with Node k d _ es => (d <> None -> k = path) /\ wf_es false path es end
with wf_es (top:bool) (path:list Z) (es:edges) {struct es} : Prop :=
  match es with
  | ENil => True
  | ECons l t r => (l = [] -> top = true /\ r = ENil) /\ (l <> [] -> ~ In (hd 0 l) (rheads r))
                   /\ wf_n (path ++ l) t /\ wf_es top path r
  end.

Lemma wf_n_eq path (n:node) : wf_n path n <-> (n_data n <> None -> n_key n = path) /\ wf_es false path (n_edges n).
Proof. destruct n; reflexivity. Qed.

Lemma wf_cons top path l (t:node) r :
  l <> [] -> ~ In (hd 0 l) (rheads r) -> wf_n (path ++ l) t -> wf_es top path r -> wf_es top path (ECons l t r).
Proof. intros Hl Hh Wt Wr. cbn [wf_es]. split; [intros E; destruct (Hl E)|auto]. Qed.

Lemma rheads_inner path (es:edges) : wf_es false path es -> rheads es = lheads es.
Proof.
  induction es as [|l t r IH]; simpl; [reflexivity|]. intros [H1 [H2 [H3 H4]]].
  destruct l as [|x l]; [destruct (H1 eq_refl); discriminate|]. unfold lheads; simpl. f_equal. apply IH; exact H4.
Qed.
Arguments rheads_inner {path es} _.
Lemma rheads_cons_nonempty l (t:node) r : l <> [] -> rheads (ECons l t r) = hd 0 l :: rheads r.
Proof. destruct l; [congruence|reflexivity]. Qed.

Lemma rheads_cons l (t:node) r :
  rheads (ECons l t r) = match l with [] => lheads (n_edges t) | x :: _ => [x] end ++ rheads r.
Proof. destruct l; reflexivity. Qed.
Lemma rheads_eapp (es:edges) key (t:node) :
  (forall l t' , In (l, t') (elist es) -> l <> []) ->
  rheads (eapp es key t) = rheads es ++ rheads (ECons key t ENil).
Proof.
  induction es as [|l t' r IH]; intros Hne; [simpl; reflexivity|].
  assert (l <> []) as Hl by (apply (Hne l t'); left; reflexivity).
  cbn [eapp]. rewrite !rheads_cons_nonempty by exact Hl. simpl. f_equal.
  apply IH. intros l0 t0 Hin. apply (Hne l0 t0). right; exact Hin.
Qed.

Lemma set_data_wf f path (t:node) : wf_n path t ->
  wf_n path (fst (set_data f path t)) /\ n_edges (fst (set_data f path t)) = n_edges t.
Proof. destruct t as [k [d|] r es]; simpl; intros [H1 H2]; repeat split; auto. intros _. apply H1. congruence. Qed.

Lemma leaf_wf f path : wf_n path (leaf f path).
Proof. simpl. auto. Qed.

Lemma eapp_wf top f full key path (es:edges) :
  full = path ++ key -> (key <> [] \/ top = true) -> wf_es top path es ->
  (forall x, In x (rheads es) -> key <> [] -> x <> hd 0 key) -> (forall l t, In (l, t) (elist es) -> l <> []) ->
  wf_es top path (eapp es key (leaf f full)).
Proof.
  intros Ef Hk. induction es as [|l t r0 IHr]; intros Hes Hm Hne.
  - cbn [eapp wf_es]. split; [intros E; destruct Hk as [Hk|Hk]; [congruence|auto]|]. split; [intros _ []|]. split; [subst full; apply leaf_wf|exact I].
  - destruct Hes as [H1 [H2 [H3 H4]]].
    assert (l <> []) as Hl by (apply (Hne l t); left; reflexivity).
    cbn [eapp]. apply wf_cons; [exact Hl| |exact H3|].
    + rewrite rheads_eapp by (intros l0 t0 Hin; apply (Hne l0 t0); right; exact Hin).
      intros Hin. apply in_app_or in Hin as [Hin|Hin]; [exact (H2 Hl Hin)|].
      destruct key as [|y key]; [destruct Hin|]. simpl in Hin. destruct Hin as [E|[]].
      apply (Hm (hd 0 l)); [rewrite rheads_cons_nonempty by exact Hl; left; reflexivity|congruence|]. simpl. congruence.
    + apply IHr; [exact H4| |].
      * intros x Hx. apply Hm. rewrite rheads_cons_nonempty by exact Hl. right; exact Hx.
      * intros l0 t0 Hin. apply (Hne l0 t0). right; exact Hin.
Qed.

(* Update keeps well-formedness and adds no first byte but the key's.  Where the loop takes no edge
   (None) it has found eapp_wf's premises: no edge routes the key's first byte, no label is empty. *)
Lemma upd_wf :
  (forall n:node, forall f full key path, full = path ++ key -> key <> [] -> wf_n path n ->
     let n' := fst (upd_n set_data f full key n) in
     wf_n path n' /\ (forall x, In x (lheads (n_edges n')) -> In x (lheads (n_edges n)) \/ x = hd 0 key))
  /\ (forall es:edges, forall top f full key path, full = path ++ key -> (key <> [] \/ top = true) -> wf_es top path es ->
     match upd_es set_data f full key es with
     | Some (es', _) => wf_es top path es' /\ (forall x, In x (rheads es') -> In x (rheads es) \/ (key <> [] /\ x = hd 0 key))
     | None => (forall x, In x (rheads es) -> key <> [] -> x <> hd 0 key) /\ (forall l t, In (l, t) (elist es) -> l <> [])
     end).
Proof.
  apply node_edges_ind.
  - intros k d r es IH f full key path Ef Hk [Hd Hes]. rewrite upd_n_unfold.
    specialize (IH false f full key path Ef (or_introl Hk) Hes).
    destruct (upd_es set_data f full key es) as [[es' c]|]; cbn [fst n_edges].
    + destruct IH as [W Hh]. split; [simpl; auto|].
      rewrite <- (rheads_inner W), <- (rheads_inner Hes). intros x Hx. destruct (Hh x Hx) as [|[_ ?]]; auto.
    + destruct IH as [Hm Hne].
      assert (wf_es false path (eapp es key (leaf f full))) as W by (apply eapp_wf; auto).
      split; [simpl; auto|].
      rewrite <- (rheads_inner W), <- (rheads_inner Hes).
      rewrite rheads_eapp by exact Hne. intros x Hx. apply in_app_or in Hx as [Hx|Hx]; [left; exact Hx|].
      rewrite (rheads_cons_nonempty _ _ Hk) in Hx. destruct Hx as [<-|[]]. right. reflexivity.
  - intros top f full key path _ _ _. simpl. split; [intros x []|intros l t []].
  - intros l t IHt r IHr top f full key path Ef Hk W. pose proof W as [H1 [H2 [Wt Wr]]]. rewrite upd_es_view.
    destruct (view_of l key) as [E | s Hs E | p l2 k2 Hp Hl El Ek H0 | Hl H0].
    + subst key full. destruct (@set_data_wf f _ _ Wt) as [W' Ee]. destruct (set_data f (path ++ l) t) as [t' c]. cbn [fst] in *.
      split; [cbn [wf_es]; auto|]. intros x Hx. left. rewrite rheads_cons in Hx |- *. rewrite Ee in Hx. exact Hx.
    + subst key. rewrite app_assoc in Ef. specialize (IHt f full s (path ++ l) Ef Hs Wt).
      destruct (upd_n set_data f full s t) as [t' c]. cbn [fst] in IHt. destruct IHt as [W' Hh].
      split; [cbn [wf_es]; auto|].
      intros x Hx. rewrite rheads_cons in Hx |- *. apply in_app_or in Hx as [Hx|Hx]; [|left; apply in_or_app; right; exact Hx].
      destruct l as [|y l]; [|left; apply in_or_app; left; exact Hx].
      destruct (Hh x Hx) as [Hy|Hy]; [left; apply in_or_app; left; exact Hy|right; split; [exact Hs|exact Hy]].
    + (* split: the new node stands where the edge stood, under the common prefix p, with the same first byte *)
      destruct p as [|y p]; [congruence|]. subst l key.
      rewrite (app_assoc path (y :: p) l2) in Wt. rewrite (app_assoc path (y :: p) k2) in Ef.
      split.
      * apply wf_cons; [discriminate|apply H2; discriminate| |exact Wr].
        destruct k2 as [|z k2].
        -- (* the key ends at the split point: the split node takes it, above the one old edge *)
           split; [intros _; rewrite app_nil_r in Ef; exact Ef|].
           apply wf_cons; [exact Hl|intros []|exact Wt|exact I].
        -- (* it goes on: an interior node above the old edge and a leaf, which start with different bytes *)
           split; [intros E; congruence|].
           apply wf_cons; [exact Hl| |exact Wt|].
           ++ intros [E|[]]. refine (cpl_zero_heads Hl _ H0 (eq_sym E)). discriminate.
           ++ apply wf_cons; [discriminate|intros []|rewrite <- Ef; apply leaf_wf|exact I].
      * intros x Hx. left. exact Hx.
    + specialize (IHr top f full key path Ef Hk Wr). destruct (upd_es set_data f full key r) as [[r' c]|].
      * destruct IHr as [W' Hh]. split.
        -- apply wf_cons; [exact Hl| |exact Wt|exact W'].
           intros Hin. destruct (Hh _ Hin) as [Hx|[Hkk Hx]]; [exact (H2 Hl Hx)|]. exact (cpl_zero_heads Hl Hkk H0 Hx).
        -- intros x Hx. rewrite rheads_cons in Hx |- *. apply in_app_or in Hx as [Hx|Hx]; [left; apply in_or_app; left; exact Hx|].
           destruct (Hh x Hx) as [Hy|Hy]; [left; apply in_or_app; right; exact Hy|right; exact Hy].
      * destruct IHr as [Hm Hne]. split.
        -- intros x Hx Hkk. rewrite (rheads_cons_nonempty _ _ Hl) in Hx.
           destruct Hx as [<-|Hx]; [exact (cpl_zero_heads Hl Hkk H0)|exact (Hm x Hx Hkk)].
        -- intros l0 t0 [E|Hin]; [injection E as <- _; exact Hl|exact (Hne l0 t0 Hin)].
Qed.

(* upd_wf's node half asks for key <> []: only the root may take the empty key (top = true) *)
Lemma upd_root_wf f key (n:node) : wf_es true [] (n_edges n) ->
  let n' := fst (upd_n set_data f key key n) in wf_es true [] (n_edges n') /\ n_data n' = n_data n.
Proof.
  destruct n as [k d r es]. intros W. rewrite upd_n_unfold.
  pose proof (proj2 upd_wf es true f key key [] eq_refl (or_intror eq_refl) W) as U.
  destruct (upd_es set_data f key key es) as [[es' c]|]; cbn [fst n_edges n_data].
  - split; [exact (proj1 U)|reflexivity].
  - (* the loop took no edge: the new edge goes last *)
    destruct U as [Hm Hne]. split; [apply eapp_wf; auto|reflexivity].
Qed.

(* the lookup on the three forms of key an edge list can be asked for *)
Lemma find_exact l (t:node) r : find_es l (ECons l t r) = Some t.
Proof. rewrite find_es_unfold. unfold is_exact. rewrite cpl_self, Nat.eqb_refl. reflexivity. Qed.
Lemma find_desc l s (t:node) r : s <> [] -> find_es (l ++ s) (ECons l t r) = find_es s (n_edges t).
Proof.
  intros Hs. rewrite find_es_unfold. unfold is_exact, is_desc. rewrite cpl_self_app, app_length, skipn_app_exact, Nat.eqb_refl.
  destruct s as [|z s]; [congruence|]. cbn [length andb].
  rewrite (proj2 (Nat.eqb_neq (length l) _)), (proj2 (Nat.ltb_lt (length l) _)) by lia. reflexivity.
Qed.
Lemma find_miss l key (t:node) r : l <> [] -> cpl l key = O -> find_es key (ECons l t r) = find_es key r.
Proof.
  intros Hl H0. rewrite find_es_unfold. unfold is_exact, is_desc, is_split. rewrite H0.
  destruct l; [congruence|]. destruct key; reflexivity.
Qed.

Definition dfind_es (key:list Z) (es:edges) : option D :=
  match find_es key es with Some n => n_data n | None => None end.

(* Where a listed entry is.  In a well-formed edge list every listed entry continues the path by some s, stores its
   path as its key, is what the lookup finds for s, and s starts with a byte the edge list routes.  The induction goes
   along the listing (the edge's node, below it, the later edges), not along a key. *)
Lemma listed : forall (es:edges) top path e, wf_es top path es -> In e (dd_es path es) ->
  exists s, e_path e = path ++ s /\ snd (fst e) = path ++ s /\ dfind_es s es = Some (snd e)
            /\ (s = [] -> top = true) /\ incl (firstn 1 s) (rheads es).
Proof.
  induction es as [|l t r IHt IHr] using edges_nest_ind; intros top path e W Hin; [destruct Hin|].
  destruct W as [H1 [H2 [Wt Wr]]]. apply wf_n_eq in Wt as [Hk Wte]. unfold dfind_es. rewrite rheads_cons.
  cbn [dd_es] in Hin. rewrite dd_n_eq in Hin. apply in_app_or in Hin as [Hin|Hin]; [apply in_app_or in Hin as [Hin|Hin]|].
  - (* the edge's node *)
    unfold own in Hin. destruct (n_data t) as [x|] eqn:Hd; [|destruct Hin]. destruct Hin as [<-|[]].
    exists l. rewrite find_exact. split; [reflexivity|]. split; [apply Hk; discriminate|]. split; [exact Hd|]. split; [intros E; apply H1; exact E|].
    destruct l; [intros y []|apply incl_appl, incl_refl].
  - (* below it: s is not empty, the lookup descends *)
    destruct (IHt false (path ++ l) e Wte Hin) as [s [E [Ek [F [Hs Hx]]]]]. exists (l ++ s). rewrite app_assoc.
    assert (s <> []) as Hs' by (intros E0; discriminate (Hs E0)).
    rewrite find_desc by exact Hs'. split; [exact E|]. split; [exact Ek|]. split; [exact F|]. split.
    + intros E0. apply app_eq_nil in E0 as [_ E0]. contradiction.
    + rewrite (rheads_inner Wte) in Hx. destruct l; [apply incl_appl; exact Hx|apply incl_appl, incl_refl].
  - (* among the later edges: their heads are not the label's, the lookup passes the edge *)
    destruct (IHr top path e Wr Hin) as [s [E [Ek [F [Hs Hx]]]]]. exists s.
    assert (l <> []) as Hl by (intros El; destruct (H1 El) as [_ Er]; subst r; destruct Hin).
    rewrite find_miss; [|exact Hl|].
    + split; [exact E|]. split; [exact Ek|]. split; [exact F|]. split; [exact Hs|apply incl_appr; exact Hx].
    + destruct s as [|z s]; [apply cpl_nil_r|]. apply heads_cpl_zero. intros Eh. apply (H2 Hl). rewrite Eh. apply Hx. left. reflexivity.
Qed.
Arguments listed {es top path e} _ _.

Lemma dd_n_prefix (t:node) q e : wf_n q t -> In e (dd_n q t) -> exists s, e_path e = q ++ s.
Proof.
  intros W Hin. apply wf_n_eq in W as [_ W]. rewrite dd_n_eq in Hin. apply in_app_or in Hin as [Hin|Hin].
  - exists []. unfold own in Hin. destruct (n_data t); [|destruct Hin]. destruct Hin as [<-|[]]. symmetry. apply app_nil_r.
  - destruct (listed W Hin) as [s [E _]]. exists s. exact E.
Qed.

(* Separation: where, in a well-formed edge list, the entry of path ++ key can NOT be.
   Below a node nothing sits at the node's own path. *)
Lemma sep_self q (es:edges) e : wf_es false q es -> In e (dd_es q es) -> e_path e <> q.
Proof.
  intros W Hin E. destruct (listed W Hin) as [s [Es [_ [_ [Ht _]]]]]. rewrite Es in E. discriminate (Ht (app_self_nil _ _ E)).
Qed.

Arguments sep_self {q es e} _ _ _.

(* an edge that shares its first byte with the key, or the empty edge, which is last (together: cpl l key = O -> l = []),
   keeps the key from the later edges *)
Lemma sep_rest top path l (t:node) r key e :
  wf_es top path (ECons l t r) -> (cpl l key = O -> l = []) -> In e (dd_es path r) -> e_path e <> path ++ key.
Proof.
  intros [H1 [H2 [_ H4]]] Hl Hin E. destruct l as [|y l]; [destruct (H1 eq_refl) as [_ Er]; subst r; destruct Hin|].
  destruct (listed H4 Hin) as [s [Es [_ [_ [_ Hx]]]]]. rewrite Es in E. apply app_inv_head in E. subst s.
  destruct key as [|z key]; [discriminate (Hl eq_refl)|]. apply H2; [discriminate|]. apply Hx. left.
  simpl in Hl. destruct (Z.eqb_spec y z) as [->|_]; [reflexivity|discriminate (Hl eq_refl)].
Qed.

Arguments sep_rest {top path l t r} key {e} _ _ _ _.

(* an edge that differs from the key at the first byte has nothing of the key below it *)
Lemma sep_below path l (t:node) key e :
  wf_n (path ++ l) t -> l <> [] -> cpl l key = O -> In e (dd_n (path ++ l) t) -> e_path e <> path ++ key.
Proof.
  intros W Hl H0 Hin E. destruct (@dd_n_prefix _ _ _ W Hin) as [s Es]. rewrite E, <- app_assoc in Es.
  apply app_inv_head in Es. subst key. rewrite cpl_self_app in H0. destruct l; [congruence|discriminate].
Qed.

Arguments sep_below {path l t key e} _ _ _ _ _.

Lemma dd_nodup :
  (forall n:node, forall path, wf_n path n -> NoDup (map e_path (dd_n path n)))
  /\ (forall es:edges, forall top path, wf_es top path es -> NoDup (map e_path (dd_es path es))).
Proof.
  apply node_edges_ind.
  - intros k d r es IH path [Hd Hes]. cbn [dd_n]. rewrite map_app. apply nodup_app.
    + unfold own; simpl. destruct d; simpl; constructor; [intros []|constructor].
    + exact (IH false path Hes).
    + intros p Hp1 Hp2. unfold own in Hp1; simpl in Hp1. destruct d; [|contradiction]. destruct Hp1 as [<-|[]].
      apply in_map_iff in Hp2 as [e [Ee Hin]]. exact (sep_self Hes Hin Ee).
  - intros; constructor.
  - intros l t IHt r IHr top path W. pose proof W as [_ [_ [H3 H4]]]. cbn [dd_es]. rewrite map_app. apply nodup_app.
    + exact (IHt (path ++ l) H3).
    + exact (IHr top path H4).
    + (* what lies below the edge starts with its label *)
      intros p Hp1 Hp2. apply in_map_iff in Hp1 as [e1 [E1 Hin1]]. apply in_map_iff in Hp2 as [e2 [E2 Hin2]].
      destruct (@dd_n_prefix _ _ _ H3 Hin1) as [s Es]. refine (sep_rest (l ++ s) W _ Hin2 _).
      * rewrite cpl_self_app. apply length_zero_iff_nil.
      * rewrite E2, <- E1, Es, app_assoc. reflexivity.
Qed.

(* the data nodes with their removal flag for one context (was_removed reads only the marks: was_removed_eq) *)
Fixpoint dx_n (ctx:Z) (path:list Z) (n:node) {struct n} : list (entry * bool) :=
  match n with Node k d r es =>
    (match d with Some x => [((path, k, x), was_removed ctx (Node k d r ENil))] | None => [] end) ++ dx_es ctx path es end
with dx_es (ctx:Z) (path:list Z) (es:edges) {struct es} : list (entry * bool) :=
  match es with ENil => [] | ECons l t r => dx_n ctx (path ++ l) t ++ dx_es ctx path r end.

Lemma was_removed_eq ctx (k:list Z) (d:option D) r (es es':edges) : was_removed ctx (Node k d r es) = was_removed ctx (Node k d r es').
Proof. reflexivity. Qed.

Lemma dx_dd ctx :
  (forall n:node, forall path, map fst (dx_n ctx path n) = dd_n path n)
  /\ (forall es:edges, forall path, map fst (dx_es ctx path es) = dd_es path es).
Proof.
  apply node_edges_ind.
  - intros k d r es IH path. cbn [dx_n dd_n]. rewrite map_app, IH. unfold own. simpl. destruct d; reflexivity.
  - reflexivity.
  - intros l t IHt r IHr path. cbn [dx_es dd_es]. rewrite map_app, IHt, IHr. reflexivity.
Qed.

Definition own_x ctx (path:list Z) (n:node) : list (entry * bool) :=
  match n_data n with Some x => [((path, n_key n, x), was_removed ctx n)] | None => [] end.
Lemma dx_n_eq ctx path (n:node) : dx_n ctx path n = own_x ctx path n ++ dx_es ctx path (n_edges n).
Proof. destruct n as [k d r es]. reflexivity. Qed.

Lemma in_dx_dd ctx path (es:edges) e b : In (e, b) (dx_es ctx path es) -> In e (dd_es path es).
Proof. intros H. rewrite <- (proj2 (dx_dd ctx)). apply in_map_iff. exists (e, b). auto. Qed.
Lemma in_dxn_dd ctx path (n:node) e b : In (e, b) (dx_n ctx path n) -> In e (dd_n path n).
Proof. intros H. rewrite <- (proj1 (dx_dd ctx)). apply in_map_iff. exists (e, b). auto. Qed.

(* the node the navigation finds, with its flag, is among the data nodes — for every tree *)
Lemma nav_flag ctx :
  (forall n:node, forall path key m d, find_es key (n_edges n) = Some m -> n_data m = Some d ->
     In ((path ++ key, n_key m, d), was_removed ctx m) (dx_es ctx path (n_edges n)))
  /\ (forall es:edges, forall path key m d, find_es key es = Some m -> n_data m = Some d ->
     In ((path ++ key, n_key m, d), was_removed ctx m) (dx_es ctx path es)).
Proof.
  apply node_edges_ind.
  - intros k d r es IH path key m d0 F Hd. cbn [n_edges] in *. exact (IH path key m d0 F Hd).
  - intros path key m d F. discriminate.
  - intros l t IHt r IHr path key m d F Hd. rewrite find_es_view in F. cbn [dx_es].
    destruct (view_of l key) as [E | s Hs E | p l2 k2 Hp Hl El Ek H0 | Hl H0].
    + subst key. injection F as <-. apply in_or_app. left. rewrite dx_n_eq. unfold own_x. rewrite Hd. left. reflexivity.
    + subst key. apply in_or_app. left. rewrite dx_n_eq. apply in_or_app. right. rewrite app_assoc. exact (IHt (path ++ l) s m d F Hd).
    + discriminate.
    + apply in_or_app. right. exact (IHr path key m d F Hd).
Qed.

(* Navigation: the node Update and Remove reach with a key is the node at that path. *)
Lemma nav_es (es:edges) top path key d : wf_es top path es ->
  (dfind_es key es = Some d <-> exists k, In (path ++ key, k, d) (dd_es path es)).
Proof.
  intros W. split.
  - unfold dfind_es. destruct (find_es key es) as [m|] eqn:F; [|discriminate]. intros Hd. exists (n_key m).
    (* nav_flag in any context will do: the flag is dropped *)
    exact (in_dx_dd 0 _ _ _ _ (proj2 (nav_flag 0) es path key m d F Hd)).
  - intros [k Hin]. destruct (listed W Hin) as [s [E [_ [F _]]]]. apply app_inv_head in E. subst s. exact F.
Qed.

Lemma nav :
  (forall n:node, forall path key d, wf_n path n ->
     (dfind_es key (n_edges n) = Some d <-> exists k, In (path ++ key, k, d) (dd_es path (n_edges n))))
  /\ (forall es:edges, forall top path key d, wf_es top path es ->
     (dfind_es key es = Some d <-> exists k, In (path ++ key, k, d) (dd_es path es))).
Proof.
  split; [|exact nav_es]. intros n path key d W. apply wf_n_eq in W as [_ W]. exact (nav_es _ _ _ key d W).
Qed.

Notation tree := (tree D).
Definition content (t:tree) : list entry := dd_es [] (n_edges (t_root t)).
(* the root never holds data: the empty key lives below the empty label, the root's last edge *)
Definition wf_tree (t:tree) : Prop :=
  wf_es true [] (n_edges (t_root t)) /\ t_len t = Z.of_nat (length (content t)) /\ n_data (t_root t) = None.

Lemma tnew_wf : wf_tree tnew.
Proof. split; [|split]; simpl; auto. Qed.

Lemma tfind_eq key (t:tree) : tfind key t = dfind_es key (n_edges (t_root t)).
Proof. unfold tfind, dfind_es. destruct (t_root t); reflexivity. Qed.

Lemma tfind_in key (t:tree) d : wf_tree t -> (tfind key t = Some d <-> exists k, In (key, k, d) (content t)).
Proof. intros [W _]. rewrite tfind_eq. exact (nav_es _ _ _ key d W). Qed.

Lemma content_keys (t:tree) p k d : wf_tree t -> In (p, k, d) (content t) -> k = p.
Proof. intros [W _] Hin. destruct (listed W Hin) as [s [E [Ek _]]]. exact (eq_trans Ek (eq_sym E)). Qed.
Lemma content_nodup (t:tree) : wf_tree t -> NoDup (map e_path (content t)).
Proof. intros [W _]. exact (proj2 dd_nodup _ true [] W). Qed.

Lemma option_ext (a b:option D) : (forall d, a = Some d <-> b = Some d) -> a = b.
Proof.
  intros H. destruct a as [x|], b as [y|]; auto.
  - symmetry. apply H; reflexivity.
  - destruct (proj1 (H x) eq_refl); reflexivity.
  - apply (H y); reflexivity.
Qed.

Lemma tfind_content (t t':tree) : wf_tree t -> wf_tree t' -> content t' = content t -> forall key, tfind key t' = tfind key t.
Proof. intros WT WT' EC key. apply option_ext. intros d. rewrite (tfind_in key d WT'), (tfind_in key d WT), EC. reflexivity. Qed.

Lemma keyeq_spec (a b:list Z) : list_eqb Z.eqb a b = true <-> a = b.
Proof. exact (list_eqb_eq _ Z.eqb_eq a b). Qed.

Lemma patched_length pk full f (l l':list entry) c : patched pk full f l l' c -> length l' = if c then S (length l) else length l.
Proof. intros [l1 k d l2 -> ->|l1 l2 -> ->]; rewrite 2 app_length; [reflexivity|symmetry; apply plus_n_Sm]. Qed.

Lemma patched_other pk full f (l l':list entry) c p k d : patched pk full f l l' c -> p <> pk ->
  (In (p, k, d) l' <-> In (p, k, d) l).
Proof.
  intros [l1 k0 d0 l2 -> ->|l1 l2 -> ->] N.
  - transitivity (In (p, k, d) (l1 ++ l2)); [|symmetry]; apply in_app_cons_neq; congruence.
  - apply in_app_cons_neq. congruence.
Qed.

Lemma patched_at pk full f (l l':list entry) c o : patched pk full f l l' c -> NoDup (map e_path l') ->
  (forall d, o = Some d <-> exists k, In (pk, k, d) l) -> exists k, In (pk, k, f o) l'.
Proof.
  intros [l1 k d l2 -> ->|l1 l2 -> ->] ND Ho.
  - exists k. replace o with (Some d); [apply in_elt|]. symmetry. apply Ho. exists k. apply in_elt.
  - exists full. destruct o as [d|]; [exfalso|apply in_elt].
    (* the new entry's path was free *)
    destruct (proj1 (Ho d) eq_refl) as [k Hin]. rewrite map_app in ND. apply NoDup_remove_2 in ND. apply ND.
    rewrite <- map_app. exact (in_map e_path _ _ Hin).
Qed.

(* one Update: the tree stays well formed; the key's data becomes f of what it was (nil when it
   was absent), every other key keeps its data; Length counts the keys *)
Theorem tupdate_map f key (t:tree) : wf_tree t ->
  wf_tree (tupdate f key t)
  /\ (forall key', tfind key' (tupdate f key t) = if list_eqb Z.eqb key' key then Some (f (tfind key t)) else tfind key' t).
Proof.
  intros WT. pose proof WT as [W [HL HR]]. unfold tupdate, tupdate_with.
  pose proof (proj1 upd_patched (t_root t) f key key []) as P.
  destruct (upd_root_wf f key _ W) as [W' HR']. rewrite HR in HR'.
  destruct (upd_n set_data f key key (t_root t)) as [r c]. cbn [fst] in *.
  rewrite !dd_n_eq in P. unfold own in P. rewrite HR, HR' in P. cbn [app] in P. fold (content t) in P.
  set (t' := {| t_root := r; t_len := if c then t_len t + 1 else t_len t |}). change (dd_es [] (n_edges r)) with (content t') in P.
  assert (wf_tree t') as WT'.
  { split; [exact W'|]. split; [|exact HR']. rewrite (patched_length P). cbn [t' t_len]. rewrite HL. destruct c; [rewrite Nat2Z.inj_succ|]; reflexivity. }
  split; [exact WT'|]. intros key'. destruct (list_eqb Z.eqb key' key) eqn:Ek.
  - apply keyeq_spec in Ek. subst key'. apply (tfind_in key _ WT').
    exact (patched_at P (content_nodup WT') (fun d => tfind_in key d WT)).
  - assert (key' <> key) as Hne by (intro E; apply keyeq_spec in E; congruence).
    apply option_ext. intros d. rewrite (tfind_in key' d WT'), (tfind_in key' d WT).
    split; intros [k Hin]; exists k; apply (patched_other k d P Hne); exact Hin.
Qed.

(* every tree built by Updates from the empty tree *)
Definition built (ups:list (list Z * (option D -> D))) : tree :=
  fold_left (fun t u => tupdate (snd u) (fst u) t) ups tnew.

Lemma built_wf ups : wf_tree (built ups).
Proof.
  unfold built. apply fold_left_inv; [|apply tnew_wf]. intros t u W. apply tupdate_map, W.
Qed.

(* the reference: what a key has accumulated over a sequence of Updates *)
Fixpoint spec_data (key:list Z) (ups:list (list Z * (option D -> D))) (acc:option D) : option D :=
  match ups with
  | [] => acc
  | (k, f) :: r => spec_data key r (if list_eqb Z.eqb key k then Some (f acc) else acc)
  end.

Theorem built_find ups key : tfind key (built ups) = spec_data key ups None.
Proof.
  unfold built. assert (tfind key (@tnew D) = None) as E0 by reflexivity. rewrite <- E0. clear E0.
  generalize tnew_wf. generalize (@tnew D). induction ups as [|[k f] ups IH]; intros t W; simpl; [reflexivity|].
  destruct (tupdate_map f k W) as [W' F]. rewrite (IH _ W'). rewrite F.
  destruct (list_eqb Z.eqb key k) eqn:E; [|reflexivity]. apply keyeq_spec in E. subst k. reflexivity.
Qed.

(* Walk takes the nodes off its queue breadth first: every node once. *)
Fixpoint all_n (n:node) {struct n} : list node := match n with Node k d r es => Node k d r es :: all_es es end
with all_es (es:edges) {struct es} : list node := match es with ENil => [] | ECons _ t r => all_n t ++ all_es r end.

Lemma all_n_eq (n:node) : all_n n = n :: all_es (n_edges n).
Proof. destruct n; reflexivity. Qed.
Lemma all_es_children (es:edges) : all_es es = flat_map all_n (map snd (elist es)).
Proof. induction es as [|l t r IH]; simpl; [reflexivity|]. rewrite IH. reflexivity. Qed.
Lemma size_all :
  (forall n:node, size_n n = length (all_n n)) /\ (forall es:edges, size_es es = length (all_es es)).
Proof.
  apply node_edges_ind.
  - intros k d r es IH. change (S (size_es es) = S (length (all_es es))). rewrite IH. reflexivity.
  - reflexivity.
  - intros l t IHt r IHr. change (size_n t + size_es r = length (all_n t ++ all_es r))%nat. rewrite app_length, IHt, IHr. reflexivity.
Qed.

Lemma bfs_perm fuel : forall q:list node, (length (flat_map all_n q) <= fuel)%nat -> Permutation (bfs fuel q) (flat_map all_n q).
Proof.
  induction fuel as [|fu IH]; intros q Hf.
  - destruct q as [|n q]; simpl in *; [constructor|]. rewrite all_n_eq in Hf. simpl in Hf. lia.
  - destruct q as [|n q]; simpl; [constructor|].
    rewrite all_n_eq. simpl. constructor.
    eapply Permutation_trans; [apply IH|].
    + rewrite flat_map_app, app_length, <- all_es_children. simpl in Hf. rewrite all_n_eq in Hf. simpl in Hf.
      rewrite app_length in Hf. lia.
    + rewrite flat_map_app, <- all_es_children. apply Permutation_app_comm.
Qed.

Lemma bfs_nodes_perm (root:node) : Permutation (bfs_nodes root) (all_n root).
Proof.
  unfold bfs_nodes. eapply Permutation_trans; [apply bfs_perm|]; simpl; rewrite app_nil_r; [|reflexivity].
  rewrite (proj1 size_all). lia.
Qed.

(* a key whose first byte no edge starts with is not below these edges: Remove's loop passes them all *)
Lemma rem_miss ctx :
  (forall n:node, forall path key, wf_n path n -> key <> [] -> ~ In (hd 0 key) (lheads (n_edges n)) -> rem_n ctx key n = (n, None))
  /\ (forall es:edges, forall top path key, wf_es top path es -> key <> [] -> ~ In (hd 0 key) (rheads es) -> rem_es ctx key es = (es, None)).
Proof.
  apply node_edges_ind.
  - intros k d r es IH path key [_ Hes] Hk Hn. rewrite rem_n_unfold. cbn [n_edges] in Hn.
    rewrite <- (rheads_inner Hes) in Hn. rewrite (IH false path key Hes Hk Hn). reflexivity.
  - reflexivity.
  - intros l t IHt r IHr top path key [_ [_ [H3 H4]]] Hk Hn. rewrite rem_es_view. rewrite rheads_cons in Hn.
    destruct (view_of l key) as [E | s Hs E | p l2 k2 Hp Hl El Ek H0 | Hl H0].
    + subst key. contradict Hn. destruct l; [congruence|left; reflexivity].
    + subst key. destruct l as [|y l]; [|contradict Hn; left; reflexivity].
      rewrite (IHt (path ++ []) s H3 Hs); [reflexivity|]. intro Hin. apply Hn. apply in_or_app. left; exact Hin.
    + destruct p; [congruence|]. subst l key. contradict Hn. left; reflexivity.
    + rewrite (IHr top path key H4 Hk); [reflexivity|]. intro Hin. apply Hn. apply in_or_app. right; exact Hin.
Qed.

(* Copy: the same keys and data, and no removal marks *)
Lemma copy_n_unfold k d r (es:edges) : copy_n (@Node D k d r es) = @Node D k d [] (copy_es es).
Proof. reflexivity. Qed.
Lemma copy_es_unfold l (t:node) r : copy_es (ECons l t r) = ECons l (copy_n t) (copy_es r).
Proof. reflexivity. Qed.

Lemma copy_es_nil (es:edges) : copy_es es = ENil <-> es = ENil.
Proof. destruct es; split; (reflexivity || discriminate). Qed.

Lemma copy_spec :
  (forall n:node, forall path, dd_n path (copy_n n) = dd_n path n /\ (wf_n path (copy_n n) <-> wf_n path n)
     /\ lheads (n_edges (copy_n n)) = lheads (n_edges n) /\ (forall m, In m (all_n (copy_n n)) -> n_removed m = []))
  /\ (forall es:edges, forall path, dd_es path (copy_es es) = dd_es path es /\ (forall top, wf_es top path (copy_es es) <-> wf_es top path es)
     /\ rheads (copy_es es) = rheads es /\ lheads (copy_es es) = lheads es /\ (forall m, In m (all_es (copy_es es)) -> n_removed m = [])).
Proof.
  apply node_edges_ind.
  - intros k d r es IH path. destruct (IH path) as [E1 [W [E2 [E3 E4]]]]. rewrite copy_n_unfold. cbn [n_edges]. split; [cbn [dd_n]; rewrite E1; reflexivity|].
    split; [cbn [wf_n]; split; intros [Hd Hes]; (split; [exact Hd|apply (W false); exact Hes])|]. split; [exact E3|].
    intros m [Em|Hm]; [subst m; reflexivity|exact (E4 m Hm)].
  - intros path. simpl. repeat split; auto. intros m [].
  - intros l t IHt r IHr path. destruct (IHt (path ++ l)) as [T1 [T2 [T3 T4]]]. destruct (IHr path) as [R1 [R2 [R3 [R4 R5]]]].
    rewrite copy_es_unfold. split; [cbn [dd_es]; rewrite T1, R1; reflexivity|]. split.
    + intros top. cbn [wf_es]. rewrite R3, copy_es_nil, T2, (R2 top). reflexivity.
    + split; [destruct l; simpl; [rewrite T3|]; rewrite R3; reflexivity|].
      split; [unfold lheads in *; simpl; rewrite R4; reflexivity|].
      intros m Hm. cbn [all_es] in Hm. apply in_app_or in Hm as [Hm|Hm]; [exact (T4 m Hm)|exact (R5 m Hm)].
Qed.

(* what Copy keeps of two edge lists that it does not tell apart *)
Lemma same_copy (es es':edges) : copy_es es' = copy_es es ->
  (forall top path, wf_es top path es -> wf_es top path es') /\ (forall path, dd_es path es' = dd_es path es) /\ rheads es' = rheads es.
Proof.
  intros E. split; [|split].
  - intros top path W. apply (proj2 copy_spec es' path). rewrite E. apply (proj2 copy_spec es path). exact W.
  - intros path. rewrite <- (proj1 (proj2 copy_spec es' path)), E. apply (proj2 copy_spec es path).
  - destruct (proj2 copy_spec es' []) as [_ [_ [<- _]]]. rewrite E. apply (proj2 copy_spec es []).
Qed.


(* Remove changes marks and nothing else *)
Lemma rem_copy ctx : forall (es:edges) key, copy_es (fst (rem_es ctx key es)) = copy_es es.
Proof.
  induction es as [|l t r IHt IHr] using edges_nest_ind; intros key; [reflexivity|].
  rewrite rem_es_unfold. destruct (is_exact l key); [|destruct (is_desc l key)].
  - destruct (was_removed ctx t); [reflexivity|]. destruct t as [k d rm es]. unfold do_remove. destruct (ctx =? 0); reflexivity.
  - destruct t as [k d rm es]. rewrite rem_n_unfold. specialize (IHt (skipn (length l) key)). cbn [n_edges] in IHt.
    destruct (rem_es ctx (skipn (length l) key) es) as [es' o]. cbn [fst] in *. rewrite !copy_es_unfold, !copy_n_unfold, IHt. reflexivity.
  - specialize (IHr key). destruct (rem_es ctx key r) as [r' o]. cbn [fst] in *. rewrite !copy_es_unfold, IHr. reflexivity.
Qed.

(* raising the flag at path p (Remove in context 0 raises nothing) *)
Definition raise (ctx:Z) (p:list Z) (x:entry * bool) : entry * bool :=
  (fst x, if list_eq_dec Z.eq_dec (e_path (fst x)) p then negb (ctx =? 0) || snd x else snd x).

Lemma raise_other ctx p (l:list (entry * bool)) : (forall e b, In (e, b) l -> e_path e <> p) -> map (raise ctx p) l = l.
Proof.
  intros H. rewrite <- (map_id l) at 2. apply map_ext_in. intros [e b] Hin. unfold raise. cbn [fst snd].
  destruct (list_eq_dec Z.eq_dec (e_path e) p) as [E|_]; [destruct (H _ _ Hin E)|reflexivity].
Qed.

(* the separation lemmas, read as: raising the flag at path ++ key leaves these parts of the listing alone *)
Lemma raise_self ctx q (es:edges) : wf_es false q es -> map (raise ctx q) (dx_es ctx q es) = dx_es ctx q es.
Proof. intros W. apply raise_other. intros e b Hin. exact (sep_self W (in_dx_dd _ _ _ _ _ Hin)). Qed.
Lemma raise_rest ctx top path l (t:node) r key : wf_es top path (ECons l t r) -> (cpl l key = O -> l = []) ->
  map (raise ctx (path ++ key)) (dx_es ctx path r) = dx_es ctx path r.
Proof. intros W Hl. apply raise_other. intros e b Hin. exact (sep_rest key W Hl (in_dx_dd _ _ _ _ _ Hin)). Qed.
Lemma raise_below ctx path l (t:node) key : wf_n (path ++ l) t -> l <> [] -> cpl l key = O ->
  map (raise ctx (path ++ key)) (dx_n ctx (path ++ l) t) = dx_n ctx (path ++ l) t.
Proof. intros W Hl H0. apply raise_other. intros e b Hin. exact (sep_below W Hl H0 (in_dxn_dd _ _ _ _ _ Hin)). Qed.
Arguments raise_self ctx {q es} _. Arguments raise_below ctx {path l t key} _ _ _.

Lemma do_remove_same ctx (t:node) :
  n_key (do_remove ctx t) = n_key t /\ n_data (do_remove ctx t) = n_data t /\ n_edges (do_remove ctx t) = n_edges t.
Proof. unfold do_remove. destruct (ctx =? 0); destruct t; simpl; auto. Qed.
Lemma do_remove_flag ctx (t:node) : was_removed ctx (do_remove ctx t) = negb (ctx =? 0) || was_removed ctx t.
Proof.
  unfold do_remove, was_removed. destruct (ctx =? 0); [reflexivity|]. destruct t as [k d r es]. cbn [n_removed negb orb].
  rewrite existsb_app. cbn [existsb]. rewrite Z.eqb_refl, orb_true_r. reflexivity.
Qed.

(* the node Remove leaves at an exact match *)
Lemma removed_node ctx (t:node) : let t' := if was_removed ctx t then t else do_remove ctx t in
  n_key t' = n_key t /\ n_data t' = n_data t /\ n_edges t' = n_edges t
  /\ was_removed ctx t' = negb (ctx =? 0) || was_removed ctx t.
Proof.
  destruct (was_removed ctx t) eqn:Er; cbn zeta.
  - rewrite Er, orb_true_r. auto.
  - rewrite do_remove_flag, Er. destruct (do_remove_same ctx t) as [E1 [E2 E3]]. auto.
Qed.

Lemma removed_dx ctx q (t:node) : wf_es false q (n_edges t) ->
  dx_n ctx q (if was_removed ctx t then t else do_remove ctx t) = map (raise ctx q) (dx_n ctx q t).
Proof.
  intros W. destruct (removed_node ctx t) as [S1 [S2 [S3 S4]]].
  rewrite !dx_n_eq, S3, map_app, (raise_self ctx W). unfold own_x. rewrite S1, S2, S4.
  destruct (n_data t); [|reflexivity]. unfold raise. cbn [map fst snd e_path].
  destruct (list_eq_dec Z.eq_dec q q); [reflexivity|contradiction].
Qed.

Lemma rem_dx ctx : forall (es:edges) top path key, wf_es top path es ->
  let '(es', o) := rem_es ctx key es in
  o = found_data ctx (find_es key es) /\ dx_es ctx path es' = map (raise ctx (path ++ key)) (dx_es ctx path es).
Proof.
  induction es as [|l t r IHt IHr] using edges_nest_ind; intros top path key W; [split; reflexivity|].
  pose proof W as [H1 [H2 [Wt Wr]]]. pose proof (raise_rest ctx key W) as Nr. pose proof (proj1 (wf_n_eq _ _) Wt) as [_ Wte].
  rewrite rem_es_view, find_es_view.
  destruct (view_of l key) as [E | s Hs E | p l2 k2 Hp Hl El Ek H0 | Hl H0].
  - (* exact: this edge's node gets the flag *)
    subst key. split; [reflexivity|].
    cbn [dx_es]. rewrite map_app, Nr, (removed_dx ctx _ _ Wte) by (rewrite cpl_self; apply length_zero_iff_nil). reflexivity.
  - (* descend: the node's own entry sits at a proper prefix of the key's path *)
    subst key. destruct t as [kt dt rt et]. rewrite rem_n_unfold. cbn [n_edges] in *.
    specialize (IHt false (path ++ l) s Wte). destruct (rem_es ctx s et) as [es' o]. destruct IHt as [Eo Ex]. split; [exact Eo|].
    cbn [dx_es]. rewrite !dx_n_eq. cbn [n_edges]. rewrite Ex, <- (app_assoc path l s), !map_app, Nr by (rewrite cpl_self_app; apply length_zero_iff_nil).
    rewrite (@raise_other ctx _ (own_x ctx (path ++ l) (Node kt dt rt et))); [reflexivity|].
    unfold own_x; cbn [n_data]. destruct dt as [x|]; [|intros e b []]. intros e b [Ee|[]]. injection Ee as <- _.
    intros E. symmetry in E. rewrite app_assoc in E. exact (Hs (app_self_nil _ _ E)).
  - (* the key leaves the label half way: Remove passes this edge, and the others cannot hold the key *)
    destruct p as [|z p]; [congruence|]. subst l key.
    rewrite (proj2 (rem_miss ctx) r top path ((z :: p) ++ k2) Wr).
    + split; [reflexivity|]. cbn [dx_es]. rewrite map_app, Nr by (rewrite cpl_app; discriminate).
      rewrite (app_assoc path (z :: p) l2), (app_assoc path (z :: p) k2), raise_below; [reflexivity|rewrite <- app_assoc; exact Wt|exact Hl|exact H0].
    + discriminate.
    + apply H2. discriminate.
  - (* miss: among the later edges *)
    specialize (IHr top path key Wr). destruct (rem_es ctx key r) as [r' o]. destruct IHr as [Eo Ex]. split; [exact Eo|].
    cbn [dx_es]. rewrite Ex, map_app, (raise_below ctx Wt Hl H0). reflexivity.
Qed.

Arguments rem_dx ctx es {top path} key _.

Lemma rem_spec ctx : forall (es:edges) top path key, wf_es top path es ->
  let '(es', o) := rem_es ctx key es in
  wf_es top path es' /\ dd_es path es' = dd_es path es /\ rheads es' = rheads es /\ o = found_data ctx (find_es key es).
Proof.
  intros es top path key W. pose proof (rem_dx ctx es key W) as R. pose proof (same_copy _ _ (rem_copy ctx es key)) as [W' [Ed Er]].
  destruct (rem_es ctx key es) as [es' o]. destruct R as [Eo _]. cbn [fst] in *. auto.
Qed.

Arguments rem_spec ctx es {top path} key _.

Lemma rem_n_spec ctx (n:node) path key : wf_n path n ->
  let '(n', o) := rem_n ctx key n in
  wf_n path n' /\ dd_n path n' = dd_n path n /\ lheads (n_edges n') = lheads (n_edges n) /\ o = found_data ctx (find_es key (n_edges n)).
Proof.
  destruct n as [k d r es]. intros [Hd W]. rewrite rem_n_unfold. pose proof (rem_spec ctx es key W) as S.
  destruct (rem_es ctx key es) as [es' o]. destruct S as [W' [Ed [Er Eo]]]. cbn [n_edges dd_n wf_n].
  rewrite Ed, <- (rheads_inner W'), <- (rheads_inner W). auto.
Qed.

(* the flagged listing of a tree (content with flags: DX_content) *)
Definition DX ctx (t:tree) : list (entry * bool) := dx_es ctx [] (n_edges (t_root t)).

Lemma DX_content ctx (t:tree) : map fst (DX ctx t) = content t.
Proof. apply (proj2 (dx_dd ctx)). Qed.

Lemma tremove_dx ctx key (t:tree) : wf_tree t ->
  let '(t', o) := tremove ctx key t in
  wf_tree t' /\ content t' = content t /\ o = found_data ctx (find_n key (t_root t))
  /\ DX ctx t' = map (raise ctx key) (DX ctx t).
Proof.
  intros [W [HL HR]]. unfold tremove, wf_tree, content, DX in *.
  destruct (t_root t) as [k0 d0 r0 es]. rewrite rem_n_unfold. cbn [n_edges find_n] in *.
  pose proof (rem_spec ctx es key W) as S. pose proof (rem_dx ctx es key W) as R.
  destruct (rem_es ctx key es) as [es' o]. destruct S as [W' [E1 _]]. destruct R as [Eo Ex].
  cbn [t_root t_len n_edges]. rewrite E1. split; [split; [exact W'|split; [exact HL|exact HR]]|]. auto.
Qed.

Lemma found_data_tfind ctx key (t:tree) :
  found_data ctx (find_n key (t_root t)) = if tremoved ctx key t then None else tfind key t.
Proof. unfold found_data, tremoved, tfind. destruct (find_n key (t_root t)) as [n|]; [destruct (was_removed ctx n)|]; reflexivity. Qed.

Theorem tremove_spec ctx key (t:tree) : wf_tree t ->
  let '(t', o) := tremove ctx key t in
  wf_tree t' /\ content t' = content t /\ o = (if tremoved ctx key t then None else tfind key t).
Proof.
  intros WT. pose proof (tremove_dx ctx key WT) as S. destruct (tremove ctx key t) as [t' o].
  destruct S as [WT' [EC [Eo _]]]. rewrite Eo, found_data_tfind. auto.
Qed.

Corollary tremove_wf ctx key (t:tree) : wf_tree t -> wf_tree (fst (tremove ctx key t)).
Proof. intros WT. pose proof (tremove_dx ctx key WT) as S. destruct (tremove ctx key t). exact (proj1 S). Qed.

Definition unmarked (ctx:Z) (t:tree) : Prop := forall n, In n (all_n (t_root t)) -> was_removed ctx n = false.

Theorem tcopy_spec (t:tree) : wf_tree t ->
  wf_tree (tcopy t) /\ content (tcopy t) = content t /\ (forall key, tfind key (tcopy t) = tfind key t)
  /\ (forall ctx, unmarked ctx (tcopy t)).
Proof.
  intros WT. pose proof WT as [W [HL HR]].
  destruct (proj2 copy_spec (n_edges (t_root t)) []) as [E1 [W2 [_ [_ E5]]]].
  assert (wf_tree (tcopy t)) as WC.
  { split; [exact (proj2 (W2 true) W)|]. split; [|reflexivity]. unfold content, tcopy; cbn [t_root t_len n_edges]. rewrite E1. exact HL. }
  assert (content (tcopy t) = content t) as EC by (unfold content, tcopy; cbn [t_root n_edges]; exact E1).
  split; [exact WC|]. split; [exact EC|]. split.
  - exact (tfind_content WT WC EC).
  - intros ctx m Hm. unfold tcopy in Hm; cbn [t_root all_n] in Hm. unfold was_removed. destruct (ctx =? 0); [reflexivity|].
    destruct Hm as [Em|Hm]; [subst m; reflexivity|]. rewrite (E5 m Hm). reflexivity.
Qed.

(* after is before with the flag raised at path p *)
Definition marked_at (p:list Z) (before after:list (entry * bool)) : Prop :=
  forall e b, In (e, b) after <->
    ((e_path e <> p /\ In (e, b) before) \/ (e_path e = p /\ b = true /\ exists b0, In (e, b0) before)).
Definition same_marks (before after:list (entry * bool)) : Prop := forall e b, In (e, b) after <-> In (e, b) before.

Lemma marked_at_map ctx p (l:list (entry * bool)) : ctx <> 0 -> marked_at p l (map (raise ctx p) l).
Proof.
  intros Hc e b. apply Z.eqb_neq in Hc. rewrite in_map_iff. unfold raise. rewrite Hc. cbn [negb orb]. split.
  - intros [[e0 b0] [E Hin]]. cbn [fst snd] in E. destruct (list_eq_dec Z.eq_dec (e_path e0) p) as [Ep|Ep]; injection E as <- <-.
    + right. split; [exact Ep|]. split; [reflexivity|]. exists b0. exact Hin.
    + left. split; [exact Ep|exact Hin].
  - intros [[N Hin]|[Ep [Eb [b0 Hin]]]].
    + exists (e, b). cbn [fst snd]. destruct (list_eq_dec Z.eq_dec (e_path e) p); [contradiction|]. auto.
    + exists (e, b0). cbn [fst snd]. destruct (list_eq_dec Z.eq_dec (e_path e) p); [|contradiction]. subst b. auto.
Qed.

(* Remove marks exactly the data node at the key's path (if there is one) *)
Lemma rem_marks ctx : ctx <> 0 ->
  (forall n:node, forall path key, key <> [] -> wf_n path n ->
     marked_at (path ++ key) (dx_es ctx path (n_edges n)) (dx_es ctx path (n_edges (fst (rem_n ctx key n))))
     /\ n_key (fst (rem_n ctx key n)) = n_key n /\ n_data (fst (rem_n ctx key n)) = n_data n
     /\ was_removed ctx (fst (rem_n ctx key n)) = was_removed ctx n)
  /\ (forall es:edges, forall top path key, wf_es top path es ->
     marked_at (path ++ key) (dx_es ctx path es) (dx_es ctx path (fst (rem_es ctx key es)))).
Proof.
  intros Hc.
  assert (forall es:edges, forall top path key, wf_es top path es ->
     marked_at (path ++ key) (dx_es ctx path es) (dx_es ctx path (fst (rem_es ctx key es)))) as Hes.
  { intros es top path key W. pose proof (rem_dx ctx es key W) as R. destruct (rem_es ctx key es) as [es' o].
    destruct R as [_ Ex]. cbn [fst]. rewrite Ex. apply marked_at_map. exact Hc. }
  split; [|exact Hes]. intros [k d r es] path key _ [_ We]. rewrite rem_n_unfold. specialize (Hes es false path key We).
  destruct (rem_es ctx key es) as [es' o]. cbn [fst n_edges n_key n_data] in *. auto.
Qed.

(* so a tree whose nodes are unmarked lists only [false] *)
Lemma dx_flags_all ctx :
  (forall n:node, forall path, incl (map snd (dx_n ctx path n)) (map (was_removed ctx) (all_n n)))
  /\ (forall es:edges, forall path, incl (map snd (dx_es ctx path es)) (map (was_removed ctx) (all_es es))).
Proof.
  apply node_edges_ind.
  - intros k d r es IH path. cbn [dx_n all_n]. rewrite map_app. apply (incl_app_app (m1:=[_])); [|apply IH].
    destruct d; intros b []; [left; assumption|contradiction].
  - intros path b [].
  - intros l t IHt r IHr path. cbn [dx_es all_es]. rewrite !map_app. apply incl_app_app; [apply IHt|apply IHr].
Qed.

(* What a Walk in ctx that runs to the end reports: at one node (kd_live), and read off the flagged
   listing (kd_of of its live entries). *)
Definition kd_live ctx (n:node) : list (list Z * D) :=
  match n_data n with Some d => if was_removed ctx n then [] else [(n_key n, d)] | None => [] end.
Definition live (l:list (entry * bool)) : list entry := map fst (filter (fun x => negb (snd x)) l).
Definition kd_of (e:entry) : list Z * D := (snd (fst e), snd e).

Lemma walk_list_live ctx keep (ns:list node) : fst (walk_list ctx (fun _ _ => (true, keep)) ns) = flat_map (kd_live ctx) ns.
Proof.
  induction ns as [|n ns IH]; [reflexivity|]. simpl. unfold kd_live at 1. destruct (n_data n) as [d|]; [|exact IH].
  destruct (was_removed ctx n); [exact IH|].
  destruct (walk_list ctx (fun _ _ => (true, keep)) ns) as [vs ms]. simpl in *. apply f_equal. exact IH.
Qed.

Lemma live_app (a b:list (entry * bool)) : live (a ++ b) = live a ++ live b.
Proof. unfold live. rewrite filter_app, map_app. reflexivity. Qed.

Lemma kd_live_dx ctx :
  (forall n:node, forall path, map kd_of (live (dx_n ctx path n)) = flat_map (kd_live ctx) (all_n n))
  /\ (forall es:edges, forall path, map kd_of (live (dx_es ctx path es)) = flat_map (kd_live ctx) (all_es es)).
Proof.
  apply node_edges_ind.
  - intros k d r es IH path. cbn [dx_n all_n flat_map]. rewrite live_app, map_app, IH.
    unfold kd_live. cbn [n_data n_key]. destruct d as [x|]; [|reflexivity].
    rewrite (was_removed_eq ctx k (Some x) r ENil es). unfold live. simpl. destruct (was_removed ctx (Node k (Some x) r es)); reflexivity.
  - reflexivity.
  - intros l t IHt r IHr path. cbn [dx_es all_es]. rewrite live_app, map_app, flat_map_app, IHt, IHr. reflexivity.
Qed.

Lemma in_live (l:list (entry * bool)) e : In e (live l) <-> In (e, false) l.
Proof.
  unfold live. rewrite in_map_iff. split.
  - intros [[e0 b] [E Hin]]. simpl in E. subst e0. apply filter_In in Hin as [Hin Hb]. destruct b; [discriminate|exact Hin].
  - intros Hin. exists (e, false). split; [reflexivity|]. apply filter_In. split; [exact Hin|reflexivity].
Qed.

Lemma DX_functional ctx (t:tree) e b e' b' : wf_tree t -> In (e, b) (DX ctx t) -> In (e', b') (DX ctx t) -> e_path e = e_path e' -> e = e' /\ b = b'.
Proof.
  intros WT. pose proof (content_nodup WT) as ND. rewrite <- (DX_content ctx), map_map in ND.
  generalize dependent (DX ctx t). intros l ND H1 H2 E.
  induction l as [|x l IH]; [destruct H1|]. simpl in ND. apply NoDup_cons_iff in ND as [Nx NDl].
  destruct H1 as [H1|H1], H2 as [H2|H2].
  - subst x. inversion H2; auto.
  - subst x. exfalso. apply Nx. apply in_map_iff. exists (e', b'). simpl. auto.
  - subst x. exfalso. apply Nx. apply in_map_iff. exists (e, b). simpl. auto.
  - apply IH; auto.
Qed.

(* the state of fileStore.iterate's loop: exactly the keys removed so far are flagged *)
Definition flags_are ctx (t:tree) (done:list (list Z)) : Prop :=
  forall e b, In (e, b) (DX ctx t) -> (b = true <-> In (e_path e) done).

Lemma flags_unmarked ctx (t:tree) : wf_tree t -> unmarked ctx t -> flags_are ctx t [].
Proof.
  intros _ U e b Hin. apply (in_map snd), (proj2 (dx_flags_all ctx)), in_map_iff in Hin as [m [Eb Hm]].
  rewrite (U m) in Eb; [cbn [snd] in Eb; subst b; split; [discriminate|intros []]|].
  rewrite all_n_eq. right. exact Hm.
Qed.

(* one Remove of fileStore.iterate: the key's data comes back (it has not been removed in this context), nothing
   but the key's mark changes *)
Lemma remove_step ctx key (t:tree) done : ctx <> 0 -> wf_tree t -> flags_are ctx t done -> ~ In key done ->
  let '(t', o) := tremove ctx key t in
  wf_tree t' /\ content t' = content t /\ o = tfind key t /\ flags_are ctx t' (key :: done).
Proof.
  intros Hc WT FA Hnd. pose proof (tremove_dx ctx key WT) as S. destruct (tremove ctx key t) as [t' o].
  destruct S as [WT' [EC [Eo EX]]]. split; [exact WT'|]. split; [exact EC|]. split.
  - (* what came back: the node the lookup finds is not flagged, its key not being among the removed *)
    rewrite Eo, found_data_tfind. unfold tremoved, tfind. rewrite (find_n_eq key (t_root t)).
    destruct (find_es key (n_edges (t_root t))) as [m|] eqn:F; [|reflexivity].
    destruct (n_data m) as [d|] eqn:Hd; [|destruct (was_removed ctx m); reflexivity].
    pose proof (proj2 (nav_flag ctx) _ [] key m d F Hd) as Hin.
    destruct (was_removed ctx m); [|reflexivity]. destruct Hnd. apply (FA _ _ Hin). reflexivity.
  - (* the marks: the flag at the key is raised, the others are as before *)
    intros e b Hin. rewrite EX in Hin. apply (marked_at_map key (DX ctx t) Hc) in Hin as [[N Hin]|[E [Eb [b0 Hin]]]].
    + rewrite (FA e b Hin). split; [intros H; right; exact H|intros [H|H]; [congruence|exact H]].
    + split; [intros _; left; congruence|intros _; exact Eb].
Qed.

Lemma remove_all_spec ctx : ctx <> 0 -> forall fks (t:tree) done, wf_tree t -> flags_are ctx t done -> NoDup fks -> (forall k, In k fks -> ~ In k done) ->
  let '(t', os) := remove_all ctx fks t in
  wf_tree t' /\ content t' = content t /\ os = map (fun k => (k, tfind k t)) fks /\ flags_are ctx t' (rev fks ++ done).
Proof.
  intros Hc. induction fks as [|k fks IH]; intros t done WT FA ND Hd; cbn [remove_all].
  - simpl. auto.
  - apply NoDup_cons_iff in ND as [Nk ND]. pose proof (@remove_step ctx k t done Hc WT FA (Hd k (or_introl eq_refl))) as S.
    destruct (tremove ctx k t) as [t1 o]. destruct S as [WT1 [EC1 [Eo FA1]]].
    specialize (IH t1 (k :: done) WT1 FA1 ND).
    destruct (remove_all ctx fks t1) as [t2 os].
    destruct IH as [WT2 [EC2 [Eos FA2]]].
    { intros k' Hk' [E|Hin]; [subst k'; exact (Nk Hk')|exact (Hd k' (or_intror Hk') Hin)]. }
    split; [exact WT2|]. split; [congruence|]. split.
    + simpl. rewrite Eo. apply f_equal. rewrite Eos. apply map_ext_in. intros k' _. apply f_equal.
      exact (tfind_content WT WT1 EC1 k').
    + simpl. rewrite <- app_assoc. exact FA2.
Qed.

Lemma DX_keys ctx (t:tree) p k d b : wf_tree t -> In ((p, k, d), b) (DX ctx t) -> k = p.
Proof. intros WT Hin. apply (content_keys p k d WT). rewrite <- (DX_content ctx). apply in_map_iff. exists ((p, k, d), b). auto. Qed.

Lemma DX_tfind ctx (t:tree) k d : wf_tree t -> (tfind k t = Some d <-> exists b, In ((k, k, d), b) (DX ctx t)).
Proof.
  intros WT. rewrite (tfind_in k d WT), <- (DX_content ctx). split.
  - intros [k0 Hin]. apply in_map_iff in Hin as [[e b] [E Hin]]. simpl in E. subst e. pose proof (DX_keys _ _ _ _ _ WT Hin) as Ek. subst k0. exists b; exact Hin.
  - intros [b Hin]. exists k. apply in_map_iff. exists ((k, k, d), b). auto.
Qed.

Lemma live_all (l:list (entry * bool)) : (forall e b, In (e, b) l -> b = false) -> live l = map fst l.
Proof.
  unfold live. induction l as [|[e b] l IH]; intros H; [reflexivity|]. simpl.
  rewrite (H e b (or_introl eq_refl)). simpl. f_equal. apply IH. intros e0 b0 Hin. apply (H e0 b0). right; exact Hin.
Qed.

(* Walk in a context: a Walk that runs to the end reports the entries this context has not removed,
   each once. *)
Theorem twalk_live ctx keep (t:tree) : wf_tree t ->
  let vs := snd (twalk ctx (fun _ _ => (true, keep)) t) in
  Permutation vs (map kd_of (live (DX ctx t))) /\ NoDup (map fst vs)
  /\ (forall k d, In (k, d) vs <-> In ((k, k, d), false) (DX ctx t)).
Proof.
  intros WT. unfold twalk. pose proof (walk_list_live ctx keep (bfs_nodes (t_root t))) as WL.
  destruct (walk_list ctx (fun _ _ => (true, keep)) (bfs_nodes (t_root t))) as [vs ms]. cbn [fst snd] in *. subst vs.
  assert (Permutation (flat_map (kd_live ctx) (bfs_nodes (t_root t))) (map kd_of (live (DX ctx t)))) as P.
  { eapply Permutation_trans; [apply Permutation_flat_map; apply bfs_nodes_perm|].
    destruct WT as [_ [_ HR]]. rewrite all_n_eq. simpl. unfold kd_live at 1. rewrite HR. simpl.
    unfold DX. rewrite (proj2 (kd_live_dx ctx)). reflexivity. }
  split; [exact P|]. split.
  - (* keys are paths, and paths are pairwise different *)
    apply (Permutation_NoDup (l:=map fst (map kd_of (live (DX ctx t))))); [apply Permutation_map; apply Permutation_sym; exact P|].
    pose proof (content_nodup WT) as NDc. rewrite <- (DX_content ctx), map_map in NDc.
    unfold live. rewrite !map_map.
    erewrite map_ext_in; [apply nodup_map_filter; exact NDc|].
    intros [[[p k] d] b] Hin. apply filter_In in Hin as [Hin _]. rewrite (DX_keys _ _ _ _ _ WT Hin). reflexivity.
  - intros k d. split.
    + intros Hin. apply (Permutation_in _ P) in Hin. apply in_map_iff in Hin as [[[p k0] d0] [E Hin]].
      unfold kd_of in E; simpl in E. injection E as -> ->. apply in_live in Hin.
      pose proof (DX_keys _ _ _ _ _ WT Hin) as Ek. subst p. exact Hin.
    + intros Hin. apply (Permutation_in _ (Permutation_sym P)). apply in_map_iff.
      exists (k, k, d). split; [reflexivity|apply in_live; exact Hin].
Qed.

(* a Walk that runs to the end in a context without removals reports every key with its data, once *)
Theorem twalk_all ctx keep (t:tree) : wf_tree t -> unmarked ctx t ->
  let vs := snd (twalk ctx (fun _ _ => (true, keep)) t) in
  Permutation vs (map kd_of (content t)) /\ NoDup (map fst vs) /\ (forall k d, In (k, d) vs <-> tfind k t = Some d).
Proof.
  intros WT U. destruct (twalk_live ctx keep WT) as [P [ND M]]. pose proof (flags_unmarked WT U) as FA.
  assert (forall e b, In (e, b) (DX ctx t) -> b = false) as F0.
  { intros e b Hin. destruct b; [|reflexivity]. destruct (proj1 (FA e true Hin) eq_refl). }
  split; [|split; [exact ND|]].
  - rewrite <- (DX_content ctx), <- (live_all _ F0). exact P.
  - intros k d. rewrite M, (DX_tfind ctx k d WT). split; [intros H; exists false; exact H|].
    intros [b Hin]. rewrite (F0 _ _ Hin) in Hin. exact Hin.
Qed.

(* the snapshot a query takes: a Walk of the Copy reports exactly the keys and data the tree held *)
Corollary copy_walk ctx keep (t:tree) : wf_tree t ->
  forall k d, In (k, d) (snd (twalk ctx (fun _ _ => (true, keep)) (tcopy t))) <-> tfind k t = Some d.
Proof.
  intros WT k d. destruct (tcopy_spec WT) as [WC [_ [F U]]].
  destruct (@twalk_all ctx keep _ WC (U ctx)) as [_ [_ M]]. rewrite M. rewrite F. reflexivity.
Qed.

(* fileStore.iterate merges a file with the memstore tree: every key of the file gets exactly the memstore's data for
   it, and the Walk that follows reports exactly the memstore's other keys, each once — every key of file and
   memstore is delivered exactly once *)
Theorem iterate_each_key_once ctx fks (t:tree) : ctx <> 0 -> wf_tree t -> unmarked ctx t -> NoDup fks ->
  let '(os, vs) := iterate_keys ctx fks t in
  os = map (fun k => (k, tfind k t)) fks
  /\ NoDup (map fst vs)
  /\ (forall k d, In (k, d) vs <-> (tfind k t = Some d /\ ~ In k fks)).
Proof.
  intros Hc WT U ND. unfold iterate_keys.
  pose proof (@remove_all_spec ctx Hc fks t [] WT (flags_unmarked WT U) ND (fun _ _ H => H)) as S.
  destruct (remove_all ctx fks t) as [t1 os]. destruct S as [WT1 [EC [Eos FA]]]. rewrite app_nil_r in FA.
  split; [exact Eos|]. destruct (twalk_live ctx false WT1) as [_ [NDv M]]. split; [exact NDv|].
  (* the flag of a key says whether the file had it *)
  intros k d. unfold take_all. rewrite M.
  rewrite <- (tfind_content WT WT1 EC k).
  rewrite (DX_tfind ctx k d WT1). split.
  - intros Hin. split; [exists false; exact Hin|]. intro Hk. apply in_rev in Hk. apply (FA _ _ Hin) in Hk. discriminate.
  - intros [[b Hin] Hk]. destruct b; [|exact Hin]. destruct Hk. apply in_rev. apply (FA _ _ Hin). reflexivity.
Qed.
End TreeP.

(* The shipped Update (before the repair e89d368 in /repo) is refuted. *)
Definition shipped_built (ups:list (list Z * Z)) : tree Z :=
  fold_left (fun t u => tupdate_with (@set_data_shipped Z) (fun o => match o with Some c => c + snd u | None => snd u end) (fst u) t) ups tnew.

(* keys "abc", "abd", then "ab" twice: the shipped tree reports the never inserted empty key,
   does not report "ab", and counts two keys *)
Lemma shipped_update_refuted :
  exists ups, let t := shipped_built ups in
    In [97; 98] (map fst ups) /\ ~ In [] (map fst ups)
    /\ snd (twalk 0 (fun _ _ => (true, true)) t) = [([], 2); ([97; 98; 99], 1); ([97; 98; 100], 1)]
    /\ t_len t = 2.
Proof.
  exists [([97; 98; 99], 1); ([97; 98; 100], 1); ([97; 98], 1); ([97; 98], 1)].
  split; [right; right; left; reflexivity|]. split; [intros [H|[H|[H|[H|[]]]]]; discriminate|].
  split; vm_compute; reflexivity.
Qed.

(* the same updates on the repaired tree *)
Example repaired_same_updates :
  let t := fold_left (fun t u => tupdate (fun o => match o with Some c => c + snd u | None => snd u end) (fst u) t)
             [([97; 98; 99], 1); ([97; 98; 100], 1); ([97; 98], 1); ([97; 98], 1)] (@tnew Z) in
  snd (twalk 0 (fun _ _ => (true, true)) t) = [([97; 98], 2); ([97; 98; 99], 1); ([97; 98; 100], 1)] /\ t_len t = 3.
Proof. split; vm_compute; reflexivity. Qed.

