(* ClusterP.v — routing is a function into [0,P); whole-query pushdown is sound exactly when output groups are
   confined to single partitions; leader-side re-merging of partial states is sound for every split (C10, C11). *)
From Coq Require Import Sorting.Permutation.
From Zeno Require Import Base ListP Sort Expr ExprSpec ExprP DB DBP Cluster.
Local Open Scope Z_scope.

Section R.
Variable hash : key -> Z.

Lemma partition_in_range : forall keys P dims, 0 < P -> 0 <= partition_for hash keys P dims < P.
Proof. intros. unfold partition_for. apply Z.mod_pos_bound. assumption. Qed.

(* every point is routed to exactly one partition *)
Lemma exactly_one_partition : forall keys P dims, 0 < P ->
  exists! p, 0 <= p < P /\ leader_offers hash keys P dims p = true.
Proof.
  intros keys P dims HP. exists (partition_for hash keys P dims). split.
  - split; [apply partition_in_range; assumption|]. unfold leader_offers. apply Z.eqb_refl.
  - intros p' [_ H]. unfold leader_offers in H. apply Z.eqb_eq in H. exact H.
Qed.

(* the leader offers an entry to partition p iff a follower of partition p accepts it *)
Lemma leader_follower_agree : forall keys P dims p,
  leader_offers hash keys P dims p = follower_accepts hash keys P dims p.
Proof. reflexivity. Qed.

(* routing depends only on the values of the partition keys *)
Lemma same_key_values_same_partition : forall keys P d1 d2,
  part_input keys d1 = part_input keys d2 -> partition_for hash keys P d1 = partition_for hash keys P d2.
Proof. intros keys P d1 d2 H. unfold partition_for. rewrite H. reflexivity. Qed.
End R.

(* what partition p computes for output row (k,t): the points of that row that were routed to p *)
Lemma partition_group : forall T q route p pts k t,
  glookup k t (groups T q (routed_to route p pts))
  = map tp_pt (filter (fun x => contributes_to T q k t x && (route x =? p)) pts).
Proof. intros. rewrite groups_lookup. unfold routed_to. rewrite filter_filter. reflexivity. Qed.

(* if output groups are confined, the partition that a point of group (k,t) is routed to holds the whole group:
   nothing is lost *)
Theorem pushdown_complete : forall T q route pts k t x, confined T q route pts ->
  In x pts -> contributes_to T q k t x = true ->
  glookup k t (groups T q (routed_to route (route x) pts)) = glookup k t (groups T q pts).
Proof.
  intros T q route pts k t x Hc Hin Cx. rewrite partition_group, groups_lookup. f_equal.
  apply filter_ext_in. intros y Hy. destruct (contributes_to T q k t y) eqn:Cy; [|reflexivity]. cbn [andb].
  apply Z.eqb_eq. apply contributes_to_spec in Cx. apply contributes_to_spec in Cy. exact (Hc y x k t Hy Hin Cy Cx).
Qed.

(* hence each partition holds a group entirely or not at all: the union of the partitions' answers is the
   standalone answer, group by group *)
Theorem pushdown_sound : forall T q route pts k t p, confined T q route pts ->
  glookup k t (groups T q (routed_to route p pts)) = glookup k t (groups T q pts)
  \/ glookup k t (groups T q (routed_to route p pts)) = [].
Proof.
  intros T q route pts k t p Hc. rewrite partition_group.
  destruct (filter (fun x => contributes_to T q k t x && (route x =? p)) pts) as [|x0 rest] eqn:E; [right; reflexivity|left].
  assert (H : In x0 (x0 :: rest)) by (left; reflexivity). rewrite <- E in H. apply filter_In in H.
  destruct H as [Hin H]. apply andb_prop in H. destruct H as [Cx Rp]. apply Z.eqb_eq in Rp.
  rewrite <- (pushdown_complete T q route pts k t x0 Hc Hin Cx), Rp, partition_group, E. reflexivity.
Qed.

(* without confinement the union of the partitions' answers can differ: two points of one group on two partitions *)
Example pushdown_needs_confinement :
  let T := {| t_fields := [(0, EAgg SUM (EField 9))]; t_groupby := Some [11]; t_res := 2; t_ret := 100; t_where := None |} in
  let q := {| q_fields := None; q_groupby := None; q_period := 0; q_asof := 0; q_until := 0; q_where := None; q_now := 20; q_vis := None; q_limit := None |} in
  let p d3 := {| tp_ts := 3; tp_dims := [(11, VStr [97]); (13, VInt d3)]; tp_pt := {| p_vals := [(9, 1)]; p_md := [] |}; tp_flags := [] |} in
  let route x := match tp_dims x with [_; (_, VInt z)] => z | _ => 0 end in
  let pts := [p 0; p 1] in
  length (spec_rows T q pts) = 1%nat /\
  length (spec_rows T q (routed_to route 0 pts) ++ spec_rows T q (routed_to route 1 pts)) = 2%nat.
Proof. vm_compute. auto. Qed.

Lemma remerge_gen : forall e parts pts0,
  fold_left (fun a ps => Expr.merge e a (st e ps)) parts (st e pts0) = st e (pts0 ++ concat parts).
Proof.
  intros e. induction parts as [|ps parts IH]; intros pts0; cbn [fold_left concat].
  - rewrite app_nil_r. reflexivity.
  - rewrite merge_hom, IH, app_assoc. reflexivity.
Qed.

(* for EVERY split of the points over the partitions (confined or not) the leader's re-merge of the partitions'
   partial states is the state of all points; with AVG travelling as (count, total) *)
Theorem remerge_sound : forall e parts all, Permutation all (concat parts) -> remerge e parts = st e all.
Proof.
  intros e parts all HP. rewrite (order_irrelevant e all (concat parts) HP). exact (remerge_gen e parts []).
Qed.
Theorem remerge_value : forall e parts all, Permutation all (concat parts) -> get e (remerge e parts) = ref e all.
Proof. intros. rewrite (remerge_sound e parts all); [apply get_ref|assumption]. Qed.
