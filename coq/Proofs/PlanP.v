(* PlanP.v — the planner's pushdown decision (Model/Plan.v, C11): a query that is accepted has its output
   groups confined to single partitions (pushdown_only_if_confined), each syntactic ground for refusal
   refuses, and a refusal can be necessary (rejection_is_justified).  The walk over the levels is read as a
   fold and a final test (pd_walk_fold). *)
From Coq Require Import List Arith Bool.
From Zeno Require Import Plan.
Import ListNotations.

Lemma memb_In : forall x l, memb x l = true <-> In x l.
Proof.
  intros x l. unfold memb. rewrite existsb_exists. split.
  - intros [y [Hin Heq]]. apply Nat.eqb_eq in Heq. subst y. exact Hin.
  - intros Hin. exists x. split; [exact Hin | apply Nat.eqb_refl].
Qed.

Lemma memb_carried : forall k pall pp gb, memb k (carried pall pp gb) = true ->
  exists n ps, In (n, ps) gb /\ pall || memb n pp = true /\ In k ps.
Proof.
  intros k pall pp gb H. apply memb_In in H. unfold carried in H. apply in_flat_map in H.
  destruct H as [[n ps] [Hin Hk]]. simpl in Hk.
  destruct (pall || memb n pp) eqn:E.
  - exists n, ps. split; [exact Hin | split; [exact E | exact Hk]].
  - destruct Hk.
Qed.

Lemma memb_map_fst : forall n ps (gb:list (nat * list nat)), In (n, ps) gb -> memb n (map fst gb) = true.
Proof.
  intros n ps gb Hin. apply memb_In. apply in_map_iff. exists (n, ps). split; [reflexivity | exact Hin].
Qed.

Lemma pd_walk_one : forall pall pp b tgb pk,
  pd_walk pall pp [b] tgb pk =
    (match tgb with
     | None => true
     | Some tparams => negb (match pk with [] => true | _ => false end) && forallb (fun k => memb k tparams) pk
     end) &&
    (if l_all b && pall then true
     else negb (match pk with [] => true | _ => false end) &&
          forallb (fun k => memb k (if l_all b then pp else carried pall pp (l_gb b))) pk).
Proof. reflexivity. Qed.

Lemma pd_walk_cons2 : forall pall pp l l2 rest tgb pk,
  pd_walk pall pp (l :: l2 :: rest) tgb pk =
    if l_all l then pd_walk pall pp (l2 :: rest) tgb pk
    else pd_walk false (carried pall pp (l_gb l)) (l2 :: rest) tgb pk.
Proof. reflexivity. Qed.

(* The walk is a fold and a final test: each level turns what its consumer keeps of its key (all of it, or the listed
   names) into what is thereby known of its input key, and the table's key must in the end determine the partition.
   The bottom level is a level like the others. *)
Definition pd_down (st:bool * list nat) (l:level) : bool * list nat :=
  if l_all l then st else (false, carried (fst st) (snd st) (l_gb l)).
Definition pd_sees (st:bool * list nat) (n:nat) : bool := fst st || memb n (snd st).
Definition pd_covers (pk ps:list nat) : bool :=
  negb (match pk with [] => true | _ => false end) && forallb (fun k => memb k ps) pk.

Lemma pd_walk_fold : forall rest l pall pp tgb pk,
  pd_walk pall pp (l :: rest) tgb pk =
    (match tgb with None => true | Some tp => pd_covers pk tp end) &&
    (let st := fold_left pd_down (l :: rest) (pall, pp) in fst st || pd_covers pk (snd st)).
Proof.
  induction rest as [|l2 rest IH]; intros l pall pp tgb pk.
  - rewrite pd_walk_one. unfold pd_down, pd_covers. cbn [fold_left fst snd]. destruct (l_all l), pall; reflexivity.
  - rewrite pd_walk_cons2. change (fold_left pd_down (l :: l2 :: rest) (pall, pp)) with (fold_left pd_down (l2 :: rest) (pd_down (pall, pp) l)).
    unfold pd_down at 2. destruct (l_all l); apply IH.
Qed.

Lemma fold_down_all : forall ls st, fst (fold_left pd_down ls st) = forallb l_all ls && fst st.
Proof.
  induction ls as [|l rest IH]; intros st; cbn [fold_left forallb]; [reflexivity|].
  rewrite IH. unfold pd_down. destruct (l_all l); [reflexivity|apply andb_false_r].
Qed.

(* the table check is part of every accepted walk *)
Lemma walk_table_check : forall ls pall pp tp pk,
  pd_walk pall pp ls (Some tp) pk = true -> forallb (fun k => memb k tp) pk = true.
Proof.
  intros [|l rest] pall pp tp pk H; [discriminate H|].
  rewrite pd_walk_fold in H. apply andb_true_iff in H. destruct H as [H _].
  apply andb_true_iff in H. exact (proj2 H).
Qed.

(* no partition keys: only the pass-through shape is accepted *)
Lemma walk_unkeyed : forall ls pall pp tgb,
  pd_walk pall pp ls tgb [] = true -> tgb = None /\ forallb l_all ls = true /\ pall = true.
Proof.
  intros [|l rest] pall pp tgb H; [discriminate H|].
  rewrite pd_walk_fold in H. apply andb_true_iff in H. destruct H as [H1 H2].
  cbn [pd_covers negb andb] in H1, H2. rewrite orb_false_r, fold_down_all in H2. apply andb_true_iff in H2.
  split; [destruct tgb; [discriminate H1|reflexivity]|exact H2].
Qed.

Lemma walk_sees : forall ls pall pp tgb pk, pd_walk pall pp ls tgb pk = true ->
  forall p, In p pk -> pd_sees (fold_left pd_down ls (pall, pp)) p = true.
Proof.
  intros [|l rest] pall pp tgb pk H p Hp; [discriminate H|].
  rewrite pd_walk_fold in H. apply andb_true_iff in H. destruct H as [_ H]. cbv zeta in H.
  unfold pd_sees. destruct (fst (fold_left pd_down (l :: rest) (pall, pp))); [reflexivity|].
  apply andb_true_iff in H. destruct H as [_ H]. rewrite forallb_forall in H. exact (H p Hp).
Qed.

Section SemP.
Variable value : Type.
Variable absent : value.
Variable eval : nat -> nat -> key value -> value.

Lemma out_key_cons : forall l rest k,
  out_key value absent eval (l :: rest) k = level_out value absent eval (length rest) l (out_key value absent eval rest k).
Proof. reflexivity. Qed.

Lemma out_key_all : forall ls k, forallb l_all ls = true -> out_key value absent eval ls k = k.
Proof.
  induction ls as [|l rest IH]; intros k H.
  - reflexivity.
  - simpl in H. apply andb_true_iff in H. destruct H as [Hl Hr].
    rewrite out_key_cons. unfold level_out. rewrite Hl. apply IH. exact Hr.
Qed.

(* one named level: what the consumer sees determines every carried parameter of the level's input *)
Lemma level_view : forall d l pall pp (k1 k2:key value),
  l_all l = false ->
  (forall n ps p (a b:key value), In (n, ps) (l_gb l) -> In p ps -> eval d n a = eval d n b -> a p = b p) ->
  (forall n, pall || memb n pp = true ->
     level_out value absent eval d l k1 n = level_out value absent eval d l k2 n) ->
  forall p, memb p (carried pall pp (l_gb l)) = true -> k1 p = k2 p.
Proof.
  intros d l pall pp k1 k2 El Hs Hv p Hp.
  apply memb_carried in Hp. destruct Hp as (n & ps & Hin & Hc & Hk).
  specialize (Hv n Hc). unfold level_out in Hv. rewrite El in Hv. cbv beta iota in Hv.
  rewrite (memb_map_fst n ps (l_gb l) Hin) in Hv.
  exact (Hs n ps p k1 k2 Hin Hk Hv).
Qed.

(* the invariant of the fold: where the consumer's view of the output keys agrees, the table keys agree on
   whatever the state reached at the bottom sees *)
Lemma down_confined : forall ls st (t1 t2:key value),
  oto_sound value eval ls ->
  (forall n, pd_sees st n = true -> out_key value absent eval ls t1 n = out_key value absent eval ls t2 n) ->
  forall p, pd_sees (fold_left pd_down ls st) p = true -> t1 p = t2 p.
Proof.
  induction ls as [|l rest IH]; intros st t1 t2 Hs Hv p Hp; [exact (Hv p Hp)|].
  destruct Hs as [Hs1 Hs2]. apply (IH (pd_down st l) t1 t2 Hs2); [|exact Hp].
  intros n Hn. unfold pd_down in Hn. destruct (l_all l) eqn:El.
  - specialize (Hv n Hn). rewrite 2 out_key_cons in Hv. unfold level_out in Hv. rewrite El in Hv. exact Hv.
  - apply (level_view (length rest) l (fst st) (snd st) _ _ El Hs1); [|exact Hn].
    intros m Hm. rewrite <- 2 out_key_cons. exact (Hv m Hm).
Qed.

End SemP.

Lemma pushdown_walks : forall q, pushdown_allowed q = true ->
  pd_walk true [] (pq_levels q) (pq_table_gb q) (pq_pk q) = true.
Proof. intros q H. unfold pushdown_allowed in H. apply andb_true_iff in H. exact (proj2 H). Qed.

Theorem pushdown_only_if_confined :
  forall (value:Type) (absent:value) (eval:nat -> nat -> key value -> value) (tkey:key value -> key value) (q:pquery) (route:key value -> nat),
  pushdown_allowed q = true ->
  oto_sound value eval (pq_levels q) ->
  table_oto value tkey (pq_table_gb q) ->
  (forall p d, In p (pq_pk q) -> tkey d p = d p) ->
  route_respects value (pq_pk q) route ->
  forall d1 d2,
    (forall n, out_key value absent eval (pq_levels q) (tkey d1) n = out_key value absent eval (pq_levels q) (tkey d2) n) ->
    route d1 = route d2.
Proof.
  intros value absent eval tkey q route Hpd Hs Ht Hk Hr d1 d2 Hv. apply pushdown_walks in Hpd.
  pose proof (down_confined value absent eval (pq_levels q) (true, []) (tkey d1) (tkey d2) Hs (fun n _ => Hv n)) as C.
  destruct (pq_pk q) as [|k0 pk0] eqn:Epk; cbn [route_respects] in Hr; apply Hr.
  - (* partitioned by all dimensions: nothing regroups, so the bottom state still sees every name *)
    apply walk_unkeyed in Hpd. destruct Hpd as (Htg & Hall & _). rewrite Htg in Ht. cbn [table_oto] in Ht.
    intros n. rewrite <- (Ht d1 n), <- (Ht d2 n). apply C. unfold pd_sees. rewrite fold_down_all, Hall. reflexivity.
  - (* keyed: C gives agreement of the two table keys at the names the walk ends up seeing, the partition
       keys among them (walk_sees), not at every name, so table_oto does not apply; Hk (the table key carries
       a partition key unchanged) makes it agreement of the dimensions *)
    intros p Hp. rewrite <- (Hk p d1 Hp), <- (Hk p d2 Hp). apply C.
    exact (walk_sees _ _ _ _ _ Hpd p Hp).
Qed.

Theorem crosstab_not_pushed_down : forall q, pq_crosstab q = true -> pushdown_allowed q = false.
Proof. intros q H. unfold pushdown_allowed. rewrite H. reflexivity. Qed.

Theorem limited_subquery_not_pushed_down : forall q, pq_subbad q = true -> pushdown_allowed q = false.
Proof. intros q H. unfold pushdown_allowed. rewrite H. destruct (pq_crosstab q); reflexivity. Qed.

Theorem nested_subquery_not_pushed_down : forall q, pq_nested_subq q = true -> pushdown_allowed q = false.
Proof. intros q H. unfold pushdown_allowed. rewrite H. destruct (pq_crosstab q); destruct (pq_subbad q); reflexivity. Qed.

Theorem unkeyed_pushdown_only_when_nothing_regroups : forall q, pq_pk q = [] -> pushdown_allowed q = true ->
  pq_table_gb q = None /\ forallb l_all (pq_levels q) = true.
Proof.
  intros q Hpk Hpd. apply pushdown_walks in Hpd. rewrite Hpk in Hpd.
  apply walk_unkeyed in Hpd. destruct Hpd as (A & B & _). split; [exact A | exact B].
Qed.

Theorem table_key_must_carry_partition_keys : forall q tparams k, pq_table_gb q = Some tparams -> In k (pq_pk q) -> memb k tparams = false ->
  pushdown_allowed q = false.
Proof.
  intros q tparams k Htg Hin Hm.
  destruct (pushdown_allowed q) eqn:Hpd; [| reflexivity].
  apply pushdown_walks in Hpd. rewrite Htg in Hpd. apply walk_table_check in Hpd.
  rewrite forallb_forall in Hpd. rewrite (Hpd k Hin) in Hm. discriminate Hm.
Qed.

Theorem rejection_is_justified : exists (q:pquery) (eval:nat -> nat -> key nat -> nat) (route:key nat -> nat) (d1 d2:key nat),
  pushdown_allowed q = false /\ oto_sound nat eval (pq_levels q) /\ route_respects nat (pq_pk q) route /\
  (forall n, out_key nat 0 eval (pq_levels q) d1 n = out_key nat 0 eval (pq_levels q) d2 n) /\ route d1 <> route d2.
Proof.
  exists {| pq_crosstab := false; pq_subbad := false; pq_nested_subq := false;
            pq_levels := [{| l_all := false; l_gb := [(2, [2])] |}];
            pq_table_gb := None; pq_pk := [1] |}.
  exists (fun (_ n:nat) (k:key nat) => k n).
  exists (fun d:key nat => d 1).
  exists (fun _:nat => 0).
  exists (fun n:nat => if Nat.eqb n 1 then 1 else 0).
  split; [reflexivity|]. split; [|split; [|split]].
  - split; [|exact I]. intros n ps p k1 k2 [[= <- <-]|[]] [<-|[]] He. exact He.
  - intros d1 d2 H. apply H. left. reflexivity.
  - intros [|[|[|n]]]; reflexivity.
  - discriminate.
Qed.

Example pushdown_examples :
  pushdown_allowed {| pq_crosstab := false; pq_subbad := false; pq_nested_subq := false; pq_levels := [{| l_all := false; l_gb := [(1,[1]); (2,[2])] |}]; pq_table_gb := None; pq_pk := [1] |} = true /\
  pushdown_allowed {| pq_crosstab := false; pq_subbad := false; pq_nested_subq := false; pq_levels := [{| l_all := false; l_gb := [(2,[2])] |}]; pq_table_gb := None; pq_pk := [1] |} = false /\
  pushdown_allowed {| pq_crosstab := false; pq_subbad := false; pq_nested_subq := false; pq_levels := [{| l_all := false; l_gb := [(5,[5])] |}; {| l_all := false; l_gb := [(5,[1]); (6,[2])] |}]; pq_table_gb := Some [1;2]; pq_pk := [1] |} = true /\
  pushdown_allowed {| pq_crosstab := false; pq_subbad := false; pq_nested_subq := false; pq_levels := [{| l_all := false; l_gb := [(6,[6])] |}; {| l_all := false; l_gb := [(5,[1]); (6,[2])] |}]; pq_table_gb := Some [1;2]; pq_pk := [1] |} = false.
Proof. vm_compute. repeat split; reflexivity. Qed.

Print Assumptions pushdown_only_if_confined.
Print Assumptions crosstab_not_pushed_down.
Print Assumptions limited_subquery_not_pushed_down.
Print Assumptions unkeyed_pushdown_only_when_nothing_regroups.
Print Assumptions table_key_must_carry_partition_keys.
Print Assumptions rejection_is_justified.
Print Assumptions pushdown_examples.
Print Assumptions nested_subquery_not_pushed_down.
