(* ExprP.v — the algebraic core (C05, C01): partial aggregation states form a
   commutative monoid under Merge, accumulation is a monoid homomorphism from
   lists of points, and Get of the accumulated state is the declared aggregate. *)
From Coq Require Import Lia Sorting.Permutation.
From Zeno Require Import Base ListP Expr ExprSpec.

Local Open Scope Z_scope.

Lemma shaped_empty : forall e, shaped e (empty e) = true.
Proof.
  induction e as [n|k|e IHe lo hi|a w IHw|v IHv w IHw|o l IHl r IHr|cid e IHe|e IHe off|f e IHe]; simpl; auto.
  (* EBin *) rewrite IHl, IHr. reflexivity.
Qed.

Lemma shaped_update : forall e c p md, shaped e c = true -> shaped e (update e c p md) = true.
Proof.
  induction e as [n|k|e IHe lo hi|a w IHw|v IHv w IHw|o l IHl r IHr|cid e IHe|e IHe off|f e IHe]; intros c p md H; simpl in *; auto.
  - (* EAgg *) destruct c; try discriminate. destruct (pval w p) as [v u]. destruct u; reflexivity.
  - (* EAvg *) destruct c; try discriminate. destruct (pval v p) as [vv u]. destruct (pval w p) as [wv u2].
    destruct s as [[cnt tot]|]; destruct u; reflexivity.
  - (* EBin *) destruct c; try discriminate. apply andb_prop in H. destruct H as [H1 H2].
    simpl. rewrite IHl, IHr; auto.
  - (* EIf *) destruct (nth cid md false); auto.
Qed.

Lemma shaped_merge : forall e x y, shaped e x = true -> shaped e y = true -> shaped e (merge e x y) = true.
Proof.
  induction e as [n|k|e IHe lo hi|a w IHw|v IHv w IHw|o l IHl r IHr|cid e IHe|e IHe off|f e IHe]; intros x y Hx Hy; simpl in *; auto.
  - (* EAgg *) destruct x, y; try discriminate. reflexivity.
  - (* EAvg *) destruct x, y; try discriminate. reflexivity.
  - (* EBin *) destruct x, y; try discriminate. apply andb_prop in Hx. apply andb_prop in Hy.
    destruct Hx, Hy. simpl. rewrite IHl, IHr; auto.
Qed.

Lemma agg_merge_set : forall a x y,
  agg_merge a true x y = match a with SUM | COUNT => x + y | MIN => Z.min x y | MAX => Z.max x y end.
Proof.
  intros [] x y; simpl.
  - reflexivity.
  - destruct (Z.ltb_spec y x); lia.
  - destruct (Z.ltb_spec x y); lia.
  - reflexivity.
Qed.
Lemma agg_merge_comm : forall a x y, agg_merge a true x y = agg_merge a true y x.
Proof. intros a x y. rewrite 2 agg_merge_set. destruct a; auto using Z.add_comm, Z.min_comm, Z.max_comm. Qed.
Lemma agg_merge_assoc : forall a x y z,
  agg_merge a true (agg_merge a true x y) z = agg_merge a true x (agg_merge a true y z).
Proof. intros a x y z. rewrite 4 agg_merge_set. destruct a; symmetry; auto using Z.add_assoc, Z.min_assoc, Z.max_assoc. Qed.
(* Update merges in the state of the single value *)
Lemma agg_merge_update0 : forall a x v,
  agg_merge a true x (agg_update a false 0 v) = agg_update a true x v.
Proof. intros [] x v; reflexivity. Qed.
Lemma agg_update_set : forall a x v,
  agg_update a true x v = match a with SUM => x + v | MIN => Z.min x v | MAX => Z.max x v | COUNT => x + 1 end.
Proof. intros a x v. rewrite <- agg_merge_update0, agg_merge_set. destruct a; reflexivity. Qed.

Lemma merge_empty_r : forall e x, shaped e x = true -> merge e x (empty e) = x.
Proof.
  induction e as [n|k|e IHe lo hi|a w IHw|v IHv w IHw|o l IHl r IHr|cid e IHe|e IHe off|f e IHe]; intros x H; simpl in *; auto; try (destruct x; try discriminate; reflexivity).
  - (* EAgg *) destruct x; try discriminate. destruct s; reflexivity.
  - (* EAvg *) destruct x; try discriminate. destruct s as [[? ?]|]; reflexivity.
  - (* EBin *) destruct x; try discriminate. apply andb_prop in H. destruct H. rewrite IHl, IHr; auto.
Qed.

Lemma merge_comm : forall e x y, shaped e x = true -> shaped e y = true -> merge e x y = merge e y x.
Proof.
  induction e as [n|k|e IHe lo hi|a w IHw|v IHv w IHw|o l IHl r IHr|cid e IHe|e IHe off|f e IHe]; intros x y Hx Hy; simpl in *; auto.
  - (* EAgg *) destruct x, y; try discriminate. destruct s, s0; auto. rewrite agg_merge_comm. reflexivity.
  - (* EAvg *) destruct x, y; try discriminate. destruct s as [[? ?]|], s0 as [[? ?]|]; auto. do 3 f_equal; apply Z.add_comm.
  - (* EBin *) destruct x, y; try discriminate. apply andb_prop in Hx. apply andb_prop in Hy. destruct Hx, Hy.
    rewrite (IHl x1 y1), (IHr x2 y2); auto.
Qed.

Lemma merge_empty_l : forall e y, shaped e y = true -> merge e (empty e) y = y.
Proof. intros e y H. rewrite merge_comm; auto using shaped_empty, merge_empty_r. Qed.

Lemma merge_assoc : forall e x y z, shaped e x = true -> shaped e y = true -> shaped e z = true ->
  merge e (merge e x y) z = merge e x (merge e y z).
Proof.
  induction e as [n|k|e IHe lo hi|a w IHw|v IHv w IHw|o l IHl r IHr|cid e IHe|e IHe off|f e IHe]; intros x y z Hx Hy Hz; simpl in *; auto.
  - (* EAgg *) destruct x; try discriminate. destruct y; try discriminate. destruct z; try discriminate.
    destruct s, s0, s1; auto. rewrite agg_merge_assoc. reflexivity.
  - (* EAvg *) destruct x; try discriminate. destruct y; try discriminate. destruct z; try discriminate.
    destruct s as [[? ?]|], s0 as [[? ?]|], s1 as [[? ?]|]; auto. rewrite 2 Z.add_assoc. reflexivity.
  - (* EBin *) destruct x; try discriminate. destruct y; try discriminate. destruct z; try discriminate.
    apply andb_prop in Hx. apply andb_prop in Hy. apply andb_prop in Hz. destruct Hx, Hy, Hz.
    rewrite IHl, IHr; auto.
Qed.

(* Update is Merge with the state of the single point: with the monoid laws this is all that has to be known
   about Update, everything below is algebra *)
Lemma update_merge : forall e c p md, shaped e c = true ->
  update e c p md = merge e c (update e (empty e) p md).
Proof.
  induction e as [n|k|e IHe lo hi|a w IHw|v IHv w IHw|o l IHl r IHr|cid e IHe|e IHe off|f e IHe]; intros c p md H; simpl in *; auto; try (destruct c; try discriminate; reflexivity).
  - (* EAgg *) destruct c; try discriminate. destruct (pval w p) as [v u]. destruct u, s; cbn; rewrite ?agg_merge_update0; reflexivity.
  - (* EAvg *) destruct c; try discriminate. destruct (pval v p) as [vv u]. destruct (pval w p) as [wv u2].
    destruct u, s as [[cnt tot]|]; reflexivity.
  - (* EBin *) destruct c; try discriminate. apply andb_prop in H. destruct H. rewrite <- IHl, <- IHr; auto.
  - (* EIf *) destruct (nth cid md false); auto. symmetry. apply merge_empty_r. exact H.
Qed.

Create HintDb shaped.
#[local] Hint Resolve shaped_empty shaped_update shaped_merge : shaped.

Lemma merge_update : forall e x y p md, shaped e x = true -> shaped e y = true ->
  merge e x (update e y p md) = update e (merge e x y) p md.
Proof.
  intros e x y p md Hx Hy.
  rewrite (update_merge e y), (update_merge e (merge e x y)) by auto with shaped.
  symmetry. apply merge_assoc; auto with shaped.
Qed.

Lemma update_comm : forall e c p1 m1 p2 m2, shaped e c = true ->
  update e (update e c p1 m1) p2 m2 = update e (update e c p2 m2) p1 m1.
Proof.
  intros e c p1 m1 p2 m2 H.
  rewrite (update_merge e (update e c p1 m1)), (update_merge e (update e c p2 m2)) by auto with shaped.
  rewrite (update_merge e c p1), (update_merge e c p2), 2 merge_assoc by auto with shaped.
  f_equal. apply merge_comm; auto with shaped.
Qed.

Definition run (e:expr) (pts:list point) (c:cell) : cell :=
  fold_left (fun c p => update e c (p_vals p) (p_md p)) pts c.

Lemma st_run : forall e pts, st e pts = run e pts (empty e).
Proof. reflexivity. Qed.
Lemma run_cons : forall e p pts c, run e (p :: pts) c = run e pts (update e c (p_vals p) (p_md p)).
Proof. reflexivity. Qed.

Lemma shaped_run : forall e pts c, shaped e c = true -> shaped e (run e pts c) = true.
Proof.
  intros e pts. apply (fold_left_inv (fun c => shaped e c = true)). intros c p. apply shaped_update.
Qed.
Lemma shaped_st : forall e pts, shaped e (st e pts) = true.
Proof. intros. apply shaped_run. apply shaped_empty. Qed.
#[local] Hint Resolve shaped_run shaped_st : shaped.

Lemma run_merge : forall e pts c, shaped e c = true -> run e pts c = merge e c (st e pts).
Proof.
  intros e. induction pts as [|p pts IH]; intros c H.
  - symmetry. apply merge_empty_r. exact H.
  - rewrite st_run, 2 run_cons, 2 IH, (update_merge e c) by auto with shaped. apply merge_assoc; auto with shaped.
Qed.

Theorem merge_hom : forall e A B, merge e (st e A) (st e B) = st e (A ++ B).
Proof.
  intros e A B. rewrite <- run_merge by auto with shaped. unfold st, run. rewrite fold_left_app. reflexivity.
Qed.

Theorem merge_split3 : forall e A B C,
  merge e (st e A) (merge e (st e B) (st e C)) = st e (A ++ B ++ C).
Proof. intros. rewrite 2 merge_hom. reflexivity. Qed.

Lemma run_update_swap : forall e pts c p, shaped e c = true ->
  run e pts (update e c (p_vals p) (p_md p)) = update e (run e pts c) (p_vals p) (p_md p).
Proof.
  intros e pts c p H. rewrite 2 run_merge, (merge_comm e c), <- merge_update by auto with shaped.
  apply merge_comm; auto with shaped.
Qed.

Theorem order_irrelevant : forall e A A', Permutation A A' -> st e A = st e A'.
Proof.
  intros e A A' HP. rewrite 2 st_run.
  generalize (empty e) (shaped_empty e).
  induction HP; intros c Hc; cbn [run fold_left].
  - reflexivity.
  - apply IHHP. apply shaped_update. exact Hc.
  - f_equal. apply update_comm. exact Hc.
  - rewrite IHHP1; auto.
Qed.

Lemma run_bin : forall o l r pts a b,
  run (EBin o l r) pts (CBin a b) = CBin (run l pts a) (run r pts b).
Proof. intros o l r. induction pts as [|p pts IH]; intros a b; simpl; auto. Qed.

Lemma run_if : forall cid e pts c,
  run (EIf cid e) pts c = run e (filter (fun p => nth cid (p_md p) false) pts) c.
Proof.
  intros cid e. induction pts as [|p pts IH]; intros c; simpl; auto.
  destruct (nth cid (p_md p) false); simpl; apply IH.
Qed.

(* the EAgg branch of update on the optional state, for a value that updates: run_agg *)
Definition agg_step (a:agg) (s:option Z) (v:Z) : option Z :=
  Some (agg_update a (match s with Some _ => true | None => false end) (match s with Some x => x | None => 0 end) v).

Lemma run_agg : forall a w pts s,
  run (EAgg a w) pts (CAgg s) = CAgg (fold_left (agg_step a) (upd_vals w pts) s).
Proof.
  intros a w. induction pts as [|p pts IH]; intros s; simpl; auto.
  destruct (pval w (p_vals p)) as [v u]. destruct u; simpl; apply IH.
Qed.

Lemma fold_agg_some : forall a r x,
  fold_left (agg_step a) r (Some x) = Some (fold_left (agg_update a true) r x).
Proof. intros a. induction r as [|v r IH]; intros x; [reflexivity|]. apply IH. Qed.

Lemma fold_agg : forall a r x,
  fold_left (agg_update a true) r x =
  match a with SUM => x + zsum r | MIN => zmin_from x r | MAX => zmax_from x r | COUNT => x + Z.of_nat (length r) end.
Proof.
  intros a. induction r as [|v r IH]; intros x; [destruct a; simpl; lia|].
  cbn [fold_left]. rewrite IH, agg_update_set.
  destruct a; cbn [zsum zmin_from zmax_from length]; try reflexivity; lia.
Qed.

Lemma fold_agg_spec : forall a vs, fold_left (agg_step a) vs None = agg_spec a vs.
Proof.
  intros a [|v r]; [reflexivity|]. cbn [fold_left]. change (agg_step a None v) with (Some (agg_update a false 0 v)).
  rewrite fold_agg_some, fold_agg. unfold agg_spec. f_equal.
  destruct a; cbn [agg_update negb zsum length]; try reflexivity; lia.
Qed.

(* the EAvg branch of update on the optional (count, total), for a (value, weight) that updates: run_avg *)
Definition avg_step (s:option (Z*Z)) (vw:Z*Z) : option (Z*Z) :=
  let '(cnt, tot) := match s with Some ct => ct | None => (0, 0) end in
  Some (cnt + snd vw, tot + fst vw * snd vw).

Lemma run_avg : forall v w pts s,
  run (EAvg v w) pts (CAvg s) = CAvg (fold_left avg_step (avg_pairs v w pts) s).
Proof.
  intros v w. induction pts as [|p pts IH]; intros s; simpl; auto.
  destruct (pval v (p_vals p)) as [vv u]. destruct (pval w (p_vals p)) as [wv u2].
  destruct u; simpl.
  - rewrite <- IH. destruct s as [[cnt tot]|]; reflexivity.
  - destruct s as [[cnt tot]|]; apply IH.
Qed.

Lemma fold_avg_some : forall ps cnt tot,
  fold_left avg_step ps (Some (cnt, tot)) =
  Some (cnt + zsum (map snd ps), tot + zsum (map (fun vw => fst vw * snd vw) ps)).
Proof.
  induction ps as [|[vv wv] ps IH]; intros cnt tot; cbn [fold_left map zsum fst snd].
  - rewrite 2 Z.add_0_r. reflexivity.
  - change (avg_step (Some (cnt, tot)) (vv, wv)) with (Some (cnt + wv, tot + vv * wv)).
    rewrite IH, 2 Z.add_assoc. reflexivity.
Qed.

Lemma fold_avg_spec : forall ps, fold_left avg_step ps None = avg_spec ps.
Proof.
  intros [|[vv wv] ps]; [reflexivity|]. cbn [fold_left]. change (avg_step None (vv, wv)) with (Some (wv, vv * wv)).
  apply fold_avg_some.
Qed.

Lemma st_bin : forall o l r pts, st (EBin o l r) pts = CBin (st l pts) (st r pts).
Proof. intros. apply run_bin. Qed.
Lemma st_if : forall cid e pts, st (EIf cid e) pts = st e (filter (fun p => nth cid (p_md p) false) pts).
Proof. intros. apply run_if. Qed.
Lemma st_agg : forall a w pts, st (EAgg a w) pts = CAgg (agg_spec a (upd_vals w pts)).
Proof. intros. rewrite <- fold_agg_spec. apply run_agg. Qed.
Lemma st_avg : forall v w pts, st (EAvg v w) pts = CAvg (avg_spec (avg_pairs v w pts)).
Proof. intros. rewrite <- fold_avg_spec. apply run_avg. Qed.

Theorem get_ref : forall e pts, get e (st e pts) = ref e pts.
Proof.
  induction e as [n|k|e IHe lo hi|a w IHw|v IHv w IHw|o l IHl r IHr|cid e IHe|e IHe off|f e IHe]; intros pts.
  - reflexivity.
  - reflexivity.
  - change (st (EBounded e lo hi) pts) with (st e pts). cbn [get ref]. rewrite IHe. reflexivity.
  - rewrite st_agg. cbn [get ref]. destruct (agg_spec a (upd_vals w pts)); reflexivity.
  - rewrite st_avg. cbn [get ref]. destruct (avg_spec (avg_pairs v w pts)) as [[cnt tot]|]; reflexivity.
  - rewrite st_bin. cbn [get ref]. rewrite IHl, IHr. reflexivity.
  - rewrite st_if. apply IHe.
  - exact (IHe pts).
  - exact (IHe pts).
Qed.
