(* OffsetsP.v — OffsetsBySource is a pointwise join: Advance takes, source by source, the later of the two offsets, never
   moves an offset backwards, and is commutative, associative and idempotent as far as any reader can tell; LimitAge
   raises every offset to at least the limit and adds no source. *)
From Coq Require Import Lia.
From Zeno Require Import Base Offsets.

Definition off_le (a b:off) : Prop := fst a < fst b \/ (fst a = fst b /\ snd a <= snd b).

Lemma off_after_spec a b : off_after a b = true <-> ~ off_le a b.
Proof.
  unfold off_after, off_le. destruct a as [x y], b as [u v]; simpl. lia.
Qed.
Lemma off_after_false a b : off_after a b = false <-> off_le a b.
Proof. rewrite <- Bool.not_true_iff_false, off_after_spec. unfold off_le. destruct a, b; simpl. lia. Qed.

Lemma off_le_refl a : off_le a a.
Proof. unfold off_le. lia. Qed.
Lemma off_after_irrefl a : off_after a a = false.
Proof. apply off_after_false, off_le_refl. Qed.
Lemma off_le_trans a b c : off_le a b -> off_le b c -> off_le a c.
Proof. unfold off_le. lia. Qed.
Lemma off_le_antisym a b : off_le a b -> off_le b a -> a = b.
Proof. unfold off_le. destruct a, b; simpl. intros. f_equal; lia. Qed.

Lemma off_max_ge_l a b : off_le a (off_max a b).
Proof. unfold off_max. destruct (off_after b a) eqn:E; [|apply off_le_refl]. apply off_after_spec in E. unfold off_le in *. lia. Qed.
Lemma off_max_ge_r a b : off_le b (off_max a b).
Proof. unfold off_max. destruct (off_after b a) eqn:E; [apply off_le_refl|]. apply off_after_false in E. exact E. Qed.
Lemma off_max_lub a b c : off_le a c -> off_le b c -> off_le (off_max a b) c.
Proof. intros Ha Hb. unfold off_max. destruct (off_after b a); assumption. Qed.
(* off_max is the join of the total order off_le: commutativity and associativity are those of any join *)
Lemma off_max_comm a b : off_max a b = off_max b a.
Proof. apply off_le_antisym; apply off_max_lub; (apply off_max_ge_l || apply off_max_ge_r). Qed.
Lemma off_max_assoc a b c : off_max (off_max a b) c = off_max a (off_max b c).
Proof.
  apply off_le_antisym; repeat apply off_max_lub.
  - apply off_max_ge_l.
  - eapply off_le_trans; [apply off_max_ge_l|apply off_max_ge_r].
  - eapply off_le_trans; [apply off_max_ge_r|apply off_max_ge_r].
  - eapply off_le_trans; [apply off_max_ge_l|apply off_max_ge_l].
  - eapply off_le_trans; [apply off_max_ge_r|apply off_max_ge_l].
  - apply off_max_ge_r.
Qed.
Lemma off_max_idem a : off_max a a = a.
Proof. unfold off_max. rewrite off_after_irrefl. reflexivity. Qed.

Lemma oget_oset s s' o m : oget s (oset s' o m) = if s =? s' then Some o else oget s m.
Proof.
  induction m as [|[t ot] r IH]; simpl.
  - destruct (s =? s'); reflexivity.
  - destruct (Z.eqb_spec s' t) as [->|N].
    + simpl. destruct (s =? t); reflexivity.
    + destruct (s' <? t); simpl.
      * destruct (s =? s'); reflexivity.
      * rewrite IH. destruct (Z.eqb_spec s t) as [->|]; [|reflexivity]. destruct (Z.eqb_spec t s'); [congruence|reflexivity].
Qed.
Lemma oread_oset s s' o m : oread s (oset s' o m) = if s =? s' then o else oread s m.
Proof. unfold oread. rewrite oget_oset. destruct (s =? s'); reflexivity. Qed.

(* the body of Advance's loop over the entries of the second map, as written in Offsets.advance: advance_some is the check *)
Definition adv_step (res:omap) (so:Z * off) : omap :=
  let '(s, o) := so in if off_after o (oread s res) then oset s o res else res.

Lemma advance_some x y : advance (Some x) (Some y) = Some (fold_left adv_step y x).
Proof. reflexivity. Qed.

Lemma adv_step_read s res so : oread s (adv_step res so) = if s =? fst so then off_max (oread s res) (snd so) else oread s res.
Proof.
  destruct so as [s' o]. simpl. destruct (off_after o (oread s' res)) eqn:E.
  - rewrite oread_oset. destruct (Z.eqb_spec s s'); [|reflexivity]. subst. unfold off_max. rewrite E. reflexivity.
  - destruct (Z.eqb_spec s s'); [|reflexivity]. subst. unfold off_max. rewrite E. reflexivity.
Qed.

(* the later of all offsets a list holds for a source *)
Fixpoint all_max (s:Z) (y:omap) (acc:off) : off :=
  match y with [] => acc | (s', o) :: r => all_max s r (if s =? s' then off_max acc o else acc) end.

Lemma fold_adv_read s y : forall x, oread s (fold_left adv_step y x) = all_max s y (oread s x).
Proof.
  induction y as [|[s' o] r IH]; intros x; simpl; [reflexivity|].
  rewrite IH. f_equal. apply (adv_step_read s x (s', o)).
Qed.

(* a Go map holds one entry per source *)
Fixpoint uniq_src (y:omap) : Prop := match y with [] => True | (s, _) :: r => oget s r = None /\ uniq_src r end.

Lemma all_max_absent s y acc : oget s y = None -> all_max s y acc = acc.
Proof.
  revert acc. induction y as [|[s' o] r IH]; intros acc H; simpl in *; [reflexivity|].
  destruct (s =? s'); [discriminate|]. apply IH. exact H.
Qed.
Lemma all_max_uniq s y acc : uniq_src y -> all_max s y acc = match oget s y with Some o => off_max acc o | None => acc end.
Proof.
  revert acc. induction y as [|[s' o] r IH]; intros acc U; simpl in *; [reflexivity|]. destruct U as [U1 U2].
  destruct (Z.eqb_spec s s').
  - subst. apply all_max_absent. exact U1.
  - apply IH. exact U2.
Qed.

Definition wf_obs (a:obs) : Prop := match a with Some m => uniq_src m | None => True end.

(* WAL offsets are not before the zero offset (file sequences are millisecond timestamps, positions byte counts) *)
Definition nonneg (a:obs) : Prop := forall s, off_le off_zero (olook s a).

Lemma off_max_zero_r o : off_le off_zero o -> off_max o off_zero = o.
Proof. intros H. unfold off_max. apply off_after_false in H. rewrite H. reflexivity. Qed.
Lemma off_max_zero_l o : off_le off_zero o -> off_max off_zero o = o.
Proof. intros H. rewrite off_max_comm. apply off_max_zero_r. exact H. Qed.

(* a source the list does not hold reads as off_zero, which changes nothing *)
Lemma all_max_read s y acc : uniq_src y -> off_le off_zero acc -> all_max s y acc = off_max acc (oread s y).
Proof.
  intros U Hz. rewrite (all_max_uniq s y acc U). unfold oread. destruct (oget s y); [reflexivity|].
  symmetry. apply off_max_zero_r. exact Hz.
Qed.

(* Advance, as any reader of the result sees it: source by source the later of the two offsets *)
Theorem advance_read s a b : wf_obs b -> nonneg a -> nonneg b -> olook s (advance a b) = off_max (olook s a) (olook s b).
Proof.
  intros W Na Nb. specialize (Na s). specialize (Nb s). destruct a as [x|], b as [y|]; [rewrite advance_some|..]; simpl in *.
  - rewrite fold_adv_read. exact (all_max_read s y _ W Na).
  - symmetry. apply off_max_zero_r. exact Na.
  - symmetry. apply off_max_zero_l. exact Nb.
  - reflexivity.
Qed.

(* no offset ever moves backwards, and the result is the least such map *)
Corollary advance_ge s a b : wf_obs b -> nonneg a -> nonneg b ->
  off_le (olook s a) (olook s (advance a b)) /\ off_le (olook s b) (olook s (advance a b)).
Proof. intros. rewrite advance_read by assumption. split; [apply off_max_ge_l|apply off_max_ge_r]. Qed.
Corollary advance_comm s a b : wf_obs a -> wf_obs b -> nonneg a -> nonneg b -> olook s (advance a b) = olook s (advance b a).
Proof. intros. rewrite !advance_read by assumption. apply off_max_comm. Qed.
Corollary advance_idem s a : wf_obs a -> nonneg a -> olook s (advance a a) = olook s a.
Proof. intros. rewrite advance_read by assumption. apply off_max_idem. Qed.

(* LimitAge: every source it had, none else, each offset raised to the limit when it was before it *)
Theorem limit_age_spec lim a :
  okeys (limit_age lim a) = okeys a
  /\ forall s, In s (okeys a) -> olook s (limit_age lim a) = off_max (olook s a) lim.
Proof.
  destruct a as [x|]; simpl; [|split; [reflexivity|intros s []]].
  split; [rewrite map_map; reflexivity|]. intros s Hin. unfold oread.
  induction x as [|[s' o] r IH]; simpl in *; [destruct Hin|].
  destruct (Z.eqb_spec s s'); [unfold off_max; reflexivity|]. destruct Hin as [E|Hin]; [congruence|]. exact (IH Hin).
Qed.

Lemma nonneg_entries m : forallb (fun so => negb (off_after off_zero (snd so))) m = true -> nonneg (Some m).
Proof.
  intros F s. unfold olook, oread. induction m as [|[s' o] r IH]; cbn [oget]; [apply off_le_refl|].
  cbn [forallb snd] in F. apply andb_prop in F as [Ho F].
  destruct (s =? s'); [apply off_after_false, negb_true_iff, Ho|exact (IH F)].
Qed.

(* a concrete pair of maps meeting the hypotheses of the theorems (non-vacuity) *)
Definition ex_a : obs := Some [(0, (5, 10)); (2, (7, 0))].
Definition ex_b : obs := Some [(0, (5, 3)); (1, (1, 1)); (2, (8, 0))].
Definition offsets_example_statement : Prop :=
  wf_obs ex_b /\ nonneg ex_a /\ nonneg ex_b
  /\ advance ex_a ex_b = Some [(0, (5, 10)); (1, (1, 1)); (2, (8, 0))] /\ advance None ex_b = ex_b /\ advance ex_a None = ex_a.
Lemma offsets_example : offsets_example_statement.
Proof.
  split; [vm_compute; auto|]. split; [apply nonneg_entries; reflexivity|]. split; [apply nonneg_entries; reflexivity|].
  vm_compute. auto.
Qed.
