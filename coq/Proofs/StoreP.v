(* StoreP.v — the row store refines the reference aggregator: whatever the flush schedule,
   a memstore-inclusive reader finds, for every key and period above the truncation horizon,
   exactly the effects of the inserts of that key and period, each once, in order. *)
From Coq Require Import Lia.
From Zeno Require Import Base Seq SeqMergeP Store.
Open Scope Z_scope.

Section SP.
Variable K : Type.
Variable keqb : K -> K -> bool.
Hypothesis keqb_eq : forall a b, keqb a b = true <-> a = b.
Variable cell : Type.
Variable cempty : cell.
Variable cmerge : cell -> cell -> cell.
Hypothesis cmerge_empty_l : forall x, cmerge cempty x = x.
Hypothesis cmerge_empty_r : forall x, cmerge x cempty = x.
Hypothesis cmerge_comm : forall x y, cmerge x y = cmerge y x.

(* side conditions of one operation: positive timestamp, truncation bound below the horizon H,
   and the insert's effect on a period commutes with merging earlier state in
   (for zenodb's expressions this is lemma merge_update of Proofs/ExprP.v).
   Outside Store.v's section the constructors carry K and cell as explicit parameters, hence the
   two leading wildcards in the patterns. *)
Definition op_ok (res H:Z) (o:sop K cell) : Prop :=
  match o with
  | SInsert _ _ _ ts tb f => 0 < ts /\ 0 <= tb /\ tb + res <= H /\ (forall x y, cmerge x (f y) = f (cmerge x y))
  | SFlush _ _ tb _ => 0 <= tb /\ tb + res <= H
  end.

Notation lk := (lookup K keqb cell).
Notation mk := (mem_key K keqb cell).
Notation dd := (dend cell cempty).
Notation al := (aligned cell).
Notation mrg := (merge cell cempty cmerge).
Notation step := (sstep K keqb cell cempty cmerge).
Notation sp := (spec_cell K keqb cell).

Lemma keqb_refl : forall k, keqb k k = true.
Proof. intros k. apply keqb_eq. reflexivity. Qed.

Lemma lookup_absent : forall k (t:tree K cell), mk k t = false -> lk k t = None.
Proof.
  intros k t. induction t as [|[k' s] r IH]; cbn [mem_key lookup]; [reflexivity|].
  intros H. apply orb_false_iff in H. destruct H as [H1 H2]. rewrite H1. auto.
Qed.

Lemma lookup_if_mem : forall k (t:tree K cell), (if mk k t then lk k t else None) = lk k t.
Proof. intros k t. destruct (mk k t) eqn:E; [reflexivity|]. symmetry. apply lookup_absent. exact E. Qed.

Lemma lookup_app : forall k (a b:tree K cell), lk k (a ++ b) = if mk k a then lk k a else lk k b.
Proof.
  intros k a b. induction a as [|[k' s] r IH]; cbn [app mem_key lookup]; [reflexivity|].
  destruct (keqb k k'); cbn [orb]; [reflexivity|exact IH].
Qed.

Lemma mem_key_app : forall k (a b:tree K cell), mk k (a ++ b) = mk k a || mk k b.
Proof.
  intros k a b. induction a as [|[k' s] r IH]; cbn [app mem_key]; [reflexivity|].
  rewrite IH. apply orb_assoc.
Qed.

Lemma lookup_upsert : forall k k' g (t:tree K cell),
  lk k (upsert K keqb cell k' g t) = if keqb k k' then g (lk k t) else lk k t.
Proof.
  intros k k' g t. induction t as [|[k2 s] r IH]; cbn [upsert lookup].
  - reflexivity.
  - destruct (keqb k' k2) eqn:E12; cbn [lookup].
    + apply keqb_eq in E12. subst k2. destruct (keqb k k'); reflexivity.
    + rewrite IH. destruct (keqb k k2) eqn:E2; [|reflexivity].
      destruct (keqb k k') eqn:E1; [|reflexivity].
      apply keqb_eq in E1. apply keqb_eq in E2. subst. rewrite keqb_refl in E12. discriminate.
Qed.

(* keys of a tree are pairwise distinct *)
Fixpoint uniq (t:tree K cell) : Prop :=
  match t with [] => True | (k, _) :: r => mk k r = false /\ uniq r end.

Lemma mem_key_upsert : forall k k' g (t:tree K cell),
  mk k (upsert K keqb cell k' g t) = keqb k k' || mk k t.
Proof.
  intros k k' g t. induction t as [|[k2 s] r IH]; cbn [upsert mem_key].
  - reflexivity.
  - destruct (keqb k' k2) eqn:E12; cbn [mem_key].
    + apply keqb_eq in E12. subst k2. destruct (keqb k k'); reflexivity.
    + rewrite IH. destruct (keqb k k2); destruct (keqb k k'); reflexivity.
Qed.

Lemma uniq_upsert : forall k' g (t:tree K cell), uniq t -> uniq (upsert K keqb cell k' g t).
Proof.
  intros k' g t. induction t as [|[k2 s] r IH]; cbn [upsert uniq].
  - intros _. split; [reflexivity|exact I].
  - intros [H1 H2]. destruct (keqb k' k2) eqn:E12; cbn [uniq].
    + split; assumption.
    + split; [|auto]. rewrite mem_key_upsert, H1.
      destruct (keqb k2 k') eqn:E21; [|reflexivity].
      apply keqb_eq in E21. subst. rewrite keqb_refl in E12. discriminate.
Qed.

(* the two passes of a flush, abstracted from the state *)
Section Passes.
Variable c : K -> bool.                 (* pass the file row through untouched *)
Variable w1 : K -> seq cell.            (* the row written for a key of the file *)
Variable d : K -> bool.                 (* the key was already handled by the first pass *)
Variable w2 : seq cell -> seq cell.     (* the row written for a memstore-only key *)
Hypothesis w2_none : w2 None = None.

Definition pass1 (ks:K * seq cell) : tree K cell :=
  let '(k, s) := ks in if c k then [(k, s)] else match w1 k with None => [] | w => [(k, w)] end.
Definition pass2 (ks:K * seq cell) : tree K cell :=
  let '(k, s) := ks in if d k then [] else match w2 s with None => [] | w => [(k, w)] end.

Lemma pass1_key : forall k k' s, keqb k k' = false -> mk k (pass1 (k', s)) = false.
Proof.
  intros k k' s E. unfold pass1. destruct (c k'); cbn [mem_key]; [rewrite E; reflexivity|].
  destruct (w1 k'); cbn [mem_key]; [rewrite E|]; reflexivity.
Qed.

Lemma pass1_mem : forall k (t:tree K cell), mk k t = false -> mk k (flat_map pass1 t) = false.
Proof.
  intros k t. induction t as [|[k' s] r IH]; cbn [flat_map mem_key]; [reflexivity|].
  intros H. apply orb_false_iff in H. destruct H as [H1 H2].
  rewrite mem_key_app, (pass1_key k k' s H1), IH by assumption. reflexivity.
Qed.

Lemma pass1_lookup : forall k (t:tree K cell),
  lk k (flat_map pass1 t) = if mk k t then (if c k then lk k t else w1 k) else None.
Proof.
  intros k t. induction t as [|[k' s] r IH]; cbn [flat_map mem_key lookup]; [reflexivity|].
  rewrite lookup_app. destruct (keqb k k') eqn:E; cbn [orb].
  - apply keqb_eq in E. subst k'. cbn [pass1].
    destruct (c k).
    + cbn [mem_key lookup]. rewrite keqb_refl. reflexivity.
    + destruct (w1 k) as [p|].
      * cbn [mem_key lookup]. rewrite keqb_refl. reflexivity.
      * cbn [mem_key]. rewrite IH. destruct (mk k r); reflexivity.
  - rewrite (pass1_key k k' s E). exact IH.
Qed.

Lemma pass2_key : forall k k' s, keqb k k' = false -> mk k (pass2 (k', s)) = false.
Proof.
  intros k k' s E. unfold pass2. destruct (d k'); [reflexivity|].
  destruct (w2 s); cbn [mem_key]; [rewrite E|]; reflexivity.
Qed.

Lemma pass2_lookup : forall k (t:tree K cell), uniq t ->
  lk k (flat_map pass2 t) = if d k then None else w2 (lk k t).
Proof.
  intros k t. induction t as [|[k' s] r IH]; cbn [flat_map lookup uniq].
  - intros _. rewrite w2_none. destruct (d k); reflexivity.
  - intros [U1 U2]. rewrite lookup_app. destruct (keqb k k') eqn:E.
    + apply keqb_eq in E. subst k'. cbn [pass2]. destruct (d k).
      * cbn [mem_key]. rewrite IH by assumption. reflexivity.
      * destruct (w2 s) as [p|].
        -- cbn [mem_key lookup]. rewrite keqb_refl. reflexivity.
        -- cbn [mem_key]. rewrite IH by assumption. rewrite (lookup_absent k r U1). exact w2_none.
    + rewrite (pass2_key k k' s E). apply IH. assumption.
Qed.
End Passes.

Lemma flush_file_passes : forall res tb raw (st:sstate K cell),
  flush_file K keqb cell cempty cmerge res tb raw st =
  flat_map (pass1 (fun k => raw && negb (mk k (s_mem K cell st)))
                  (fun k => written cell res tb (merged K keqb cell cempty cmerge res tb st k)))
           (s_file K cell st)
  ++ flat_map (pass2 (fun k => mk k (s_file K cell st))
                     (fun s => written cell res tb (mrg None s res tb)))
              (s_mem K cell st).
Proof. reflexivity. Qed.

(* the row a flush leaves on disk for a key *)
Lemma lookup_flush : forall res tb raw (st:sstate K cell) k, uniq (s_mem K cell st) ->
  lk k (flush_file K keqb cell cempty cmerge res tb raw st) =
  if mk k (s_file K cell st)
  then (if raw && negb (mk k (s_mem K cell st)) then lk k (s_file K cell st)
        else written cell res tb (merged K keqb cell cempty cmerge res tb st k))
  else written cell res tb (lk k (s_mem K cell st)).
Proof.
  intros res tb raw st k U. rewrite flush_file_passes, lookup_app.
  rewrite pass2_lookup by (reflexivity || assumption).
  destruct (mk k (s_file K cell st)) eqn:Ef.
  - (* a key of the file: the second pass skips it *)
    rewrite lookup_if_mem, pass1_lookup, Ef. reflexivity.
  - rewrite pass1_mem by assumption. reflexivity.
Qed.

Definition all_aligned (res:Z) (t:tree K cell) : Prop := forall k, al res (lk k t).
Definition wf (res:Z) (st:sstate K cell) : Prop :=
  all_aligned res (s_mem K cell st) /\ all_aligned res (s_file K cell st) /\ uniq (s_mem K cell st).

(* the combined view of a key and period: disk merged with memory *)
Definition view (res:Z) (st:sstate K cell) (k:K) (t:Z) : cell :=
  cmerge (dd res (lk k (s_file K cell st)) t) (dd res (lk k (s_mem K cell st)) t).

Lemma content_dd : forall res tb st k t,
  content K keqb cell cempty cmerge res tb st k t = dd res (merged K keqb cell cempty cmerge res tb st k) t.
Proof. reflexivity. Qed.

Lemma merged_view : forall res tb st k t, 0 < res -> wf res st -> 0 <= tb -> tb + res <= t -> 0 < t ->
  dd res (merged K keqb cell cempty cmerge res tb st k) t = view res st k t.
Proof.
  intros res tb st k t Hr [Wm [Wf _]] Htb Ht H0. unfold merged, view.
  apply merge_den; try assumption; [apply Wf|apply Wm|]. apply ruu_below; assumption.
Qed.

Lemma written_dd : forall res tb s t, 0 < res -> 0 <= tb -> al res s -> tb < t ->
  dd res (written cell res tb s) t = dd res s t.
Proof.
  intros res tb s t Hr Htb Ha Ht. unfold dend, written. rewrite truncate_den_above by assumption. reflexivity.
Qed.

Lemma written_aligned : forall res tb s, al res s -> al res (written cell res tb s).
Proof. intros. unfold written. apply truncate_aligned. assumption. Qed.

Lemma merged_aligned : forall res tb st k, 0 < res -> wf res st ->
  al res (merged K keqb cell cempty cmerge res tb st k).
Proof. intros res tb st k Hr [Wm [Wf _]]. unfold merged. apply merge_aligned; [assumption|apply Wf|apply Wm]. Qed.

Lemma wf_init : forall res, wf res (sinit K cell).
Proof. intros res. split; [|split]; try exact I; intros k; exact I. Qed.

Lemma wf_step : forall res H st o, 0 < res -> op_ok res H o -> wf res st -> wf res (step res st o).
Proof.
  intros res H st o Hr Hok W. pose proof W as [Wm [Wf U]]. destruct o as [k' ts tb f|tb raw]; cbn [sstep].
  - destruct Hok as [Hts _]. split; [|split]; cbn [s_mem s_file].
    + intros k. rewrite lookup_upsert. destruct (keqb k k'); [|apply Wm].
      apply update_value_aligned; try assumption. apply Wm.
    + exact Wf.
    + apply uniq_upsert. exact U.
  - split; [|split]; cbn [s_mem s_file].
    + intros k. exact I.
    + intros k. rewrite lookup_flush by assumption.
      destruct (mk k (s_file K cell st)).
      * destruct (raw && negb (mk k (s_mem K cell st))); [apply Wf|].
        apply written_aligned. apply merged_aligned; assumption.
      * apply written_aligned. apply Wm.
    + exact I.
Qed.

Lemma flush_dd : forall res tb raw st k t, 0 < res -> wf res st -> 0 <= tb -> tb < t ->
  dd res (lk k (flush_file K keqb cell cempty cmerge res tb raw st)) t
  = dd res (merged K keqb cell cempty cmerge res tb st k) t.
Proof.
  intros res tb raw st k t Hr W Htb Ht. pose proof W as [Wm [Wf U]].
  rewrite lookup_flush by assumption.
  destruct (mk k (s_file K cell st)) eqn:Ef.
  - destruct (raw && negb (mk k (s_mem K cell st))) eqn:Er.
    + apply andb_prop in Er. destruct Er as [_ Em]. apply negb_true_iff, lookup_absent in Em.
      unfold merged. rewrite Em, merge_none_r. reflexivity.
    + apply written_dd; try assumption. apply merged_aligned; assumption.
  - unfold merged. rewrite (lookup_absent _ _ Ef). apply written_dd; try assumption. apply Wm.
Qed.

(* one step transforms the combined view the way the reference does *)
Lemma view_step : forall res H st o k t, 0 < res -> op_ok res H o -> wf res st -> H <= t -> 0 < t ->
  view res (step res st o) k t = sp res k t [o] (view res st k t).
Proof.
  intros res H st o k t Hr Hok W Ht H0. pose proof W as [Wm [Wf U]].
  destruct o as [k' ts tb f|tb raw]; cbn [sstep spec_cell]; unfold view; cbn [s_mem s_file].
  - destruct Hok as [Hts [Htb [HtbH Hf]]]. rewrite lookup_upsert.
    destruct (keqb k k'); cbn [andb]; [|reflexivity].
    rewrite update_value_den; try assumption; [|apply Wm|apply ruu_below; lia].
    rewrite (Z.eqb_sym t). destruct (round_up ts res =? t); [apply Hf|reflexivity].
  - destruct Hok as [Htb HtbH]. cbn [lookup]. rewrite dend_none, cmerge_empty_r, flush_dd by (assumption || lia).
    apply merged_view; try assumption; lia.
Qed.

Definition run_from (res:Z) (st:sstate K cell) (ops:list (sop K cell)) : sstate K cell :=
  fold_left (step res) ops st.

Lemma wf_run : forall res H ops st, 0 < res -> Forall (op_ok res H) ops -> wf res st -> wf res (run_from res st ops).
Proof.
  intros res H ops. induction ops as [|o r IH]; intros st Hr Hok W; [exact W|].
  apply Forall_cons_iff in Hok as [Ho Hok]. cbn [run_from fold_left]. apply IH; try assumption. eapply wf_step; eassumption.
Qed.

Lemma spec_cell_cons : forall res k t o r acc, sp res k t (o :: r) acc = sp res k t r (sp res k t [o] acc).
Proof.
  intros res k t [k' ts tb f|tb raw] r acc; cbn [spec_cell]; [|reflexivity].
  destruct (keqb k k' && (round_up ts res =? t)); reflexivity.
Qed.

Lemma view_run : forall res H ops st k t, 0 < res -> Forall (op_ok res H) ops -> wf res st -> H <= t -> 0 < t ->
  view res (run_from res st ops) k t = sp res k t ops (view res st k t).
Proof.
  intros res H ops. induction ops as [|o r IH]; intros st k t Hr Hok W Ht H0; [reflexivity|].
  apply Forall_cons_iff in Hok as [Ho Hr'].
  change (run_from res st (o :: r)) with (run_from res (step res st o) r).
  rewrite spec_cell_cons, <- (view_step res H) by assumption.
  apply IH; try assumption. eapply wf_step; eassumption.
Qed.

Theorem store_content : forall res H ops tbq k t,
  0 < res -> Forall (op_ok res H) ops -> 0 <= tbq -> tbq + res <= H -> H <= t -> 0 < t ->
  content K keqb cell cempty cmerge res tbq (srun K keqb cell cempty cmerge res ops) k t
  = spec_cell K keqb cell res k t ops cempty.
Proof.
  intros res H ops tbq k t Hr Hok Hq HqH Ht H0.
  change (srun K keqb cell cempty cmerge res ops) with (run_from res (sinit K cell) ops).
  rewrite content_dd, merged_view; try assumption; try lia; [|eapply wf_run; try eassumption; apply wf_init].
  rewrite (view_run res H) by (assumption || apply wf_init).
  f_equal. unfold view. cbn [sinit s_mem s_file lookup]. rewrite dend_none. apply cmerge_empty_l.
Qed.

Definition inserts_of (ops:list (sop K cell)) :=
  filter (fun o => match o with SInsert _ _ _ _ _ _ => true | SFlush _ _ _ _ => false end) ops.

Lemma spec_cell_inserts : forall res k t ops acc,
  sp res k t ops acc = sp res k t (inserts_of ops) acc.
Proof.
  intros res k t ops. induction ops as [|o r IH]; intros acc; [reflexivity|].
  destruct o as [k' ts tb f|tb raw]; cbn [inserts_of filter spec_cell]; [|apply IH].
  destruct (keqb k k' && (round_up ts res =? t)); apply IH.
Qed.

(* when data is flushed and where it lies are invisible: the content depends on the operations only through
   the reference value of their inserts *)
Corollary schedule_independent : forall res H ops1 ops2 tbq k t,
  0 < res -> Forall (op_ok res H) ops1 -> Forall (op_ok res H) ops2 -> 0 <= tbq -> tbq + res <= H -> H <= t -> 0 < t ->
  spec_cell K keqb cell res k t (inserts_of ops1) cempty = spec_cell K keqb cell res k t (inserts_of ops2) cempty ->
  content K keqb cell cempty cmerge res tbq (srun K keqb cell cempty cmerge res ops1) k t =
  content K keqb cell cempty cmerge res tbq (srun K keqb cell cempty cmerge res ops2) k t.
Proof.
  intros res H ops1 ops2 tbq k t Hr Hok1 Hok2 Hq HqH Ht H0 E.
  rewrite (store_content res H ops1), (store_content res H ops2) by assumption.
  rewrite (spec_cell_inserts res k t ops1), (spec_cell_inserts res k t ops2). exact E.
Qed.

(* in particular: the same inserts in the same order, flushes placed anywhere *)
Corollary schedule_independent_same_inserts : forall res H ops1 ops2 tbq k t,
  0 < res -> Forall (op_ok res H) ops1 -> Forall (op_ok res H) ops2 -> 0 <= tbq -> tbq + res <= H -> H <= t -> 0 < t ->
  inserts_of ops1 = inserts_of ops2 ->
  content K keqb cell cempty cmerge res tbq (srun K keqb cell cempty cmerge res ops1) k t =
  content K keqb cell cempty cmerge res tbq (srun K keqb cell cempty cmerge res ops2) k t.
Proof.
  intros res H ops1 ops2 tbq k t Hr Hok1 Hok2 Hq HqH Ht H0 E.
  apply (schedule_independent res H); try assumption. rewrite E. reflexivity.
Qed.

(* immediately after a flush a disk-only reader sees what a memstore-inclusive reader sees
   (the memstore is empty then, so this holds for every key, period and bound; the side conditions
   are kept for uniformity with the other statements and are not used) *)
Corollary disk_equals_mem_after_flush : forall res H ops tb raw tbq k t,
  0 < res -> Forall (op_ok res H) ops -> op_ok res H (SFlush K cell tb raw) ->
  0 <= tbq -> tbq + res <= H -> H <= t -> 0 < t ->
  let st := srun K keqb cell cempty cmerge res (ops ++ [SFlush K cell tb raw]) in
  (match den cell res (merge cell cempty cmerge (lookup K keqb cell k (s_file K cell st)) None res tbq) t
   with Some c => c | None => cempty end)
  = content K keqb cell cempty cmerge res tbq st k t.
Proof.
  intros res H ops tb raw tbq k t _ _ _ _ _ _ _ st.
  unfold content, merged. replace (s_mem K cell st) with (@nil (K * seq cell)); [reflexivity|].
  unfold st, srun. rewrite fold_left_app. reflexivity.
Qed.

(* hence the disk-only reader after a flush finds exactly the reference value *)
Corollary disk_content_after_flush : forall res H ops tb raw tbq k t,
  0 < res -> Forall (op_ok res H) ops -> op_ok res H (SFlush K cell tb raw) ->
  0 <= tbq -> tbq + res <= H -> H <= t -> 0 < t ->
  let st := srun K keqb cell cempty cmerge res (ops ++ [SFlush K cell tb raw]) in
  (match den cell res (merge cell cempty cmerge (lookup K keqb cell k (s_file K cell st)) None res tbq) t
   with Some c => c | None => cempty end)
  = spec_cell K keqb cell res k t ops cempty.
Proof.
  intros res H ops tb raw tbq k t Hr Hok Hfl Hq HqH Ht H0 st.
  unfold st. rewrite (disk_equals_mem_after_flush res H) by assumption.
  assert (Hall : Forall (op_ok res H) (ops ++ [SFlush K cell tb raw]))
    by (apply Forall_app; split; [assumption|constructor; [assumption|constructor]]).
  rewrite (store_content res H) by assumption.
  rewrite (spec_cell_inserts res k t (ops ++ _)), (spec_cell_inserts res k t ops).
  unfold inserts_of. rewrite filter_app. cbn [filter]. rewrite app_nil_r. reflexivity.
Qed.
End SP.

Print Assumptions store_content.
Print Assumptions schedule_independent.
Print Assumptions disk_equals_mem_after_flush.
Print Assumptions disk_content_after_flush.
