(* RetentionP.v — retention (Model/Retention.v, C14): clock and truncation horizon only move forward, the
   horizon never passes clock - retention, a point older than that is ignored, among ten data-carrying
   flushes one truncates, and what a truncating flush writes has lost exactly the periods at or before the
   bound (written_den, from SeqP.truncate_den). *)
From Coq Require Import Lia.
From Zeno Require Import Base ListP BaseP Seq SeqP DB Retention.
Local Open Scope Z_scope.

(* what a step does to clock, accepted points and horizon: nothing, accept a point, or truncate *)
Variant rstep_view (T:table) (s:rstate) : Z -> list tpoint -> Z -> Prop :=
| rv_same : rstep_view T s (r_clock s) (r_acc s) (r_horizon s)
| rv_ins p : rstep_view T s (Z.max (r_clock s) (tp_ts p)) (r_acc s ++ [p]) (r_horizon s)
| rv_trunc : rstep_view T s (r_clock s) (r_acc s) (Z.max (r_horizon s) (floor_mul (r_clock s - t_ret T) (t_res T))).
Lemma rstep_cases : forall T s o,
  rstep_view T s (r_clock (rstep T s o)) (r_acc (rstep T s o)) (r_horizon (rstep T s o)).
Proof.
  intros T s [p|]; cbn [rstep].
  - destruct (tp_ts p <? r_clock s - t_ret T); [constructor|]. destruct (negb (flag (t_where T) p)); [constructor|].
    cbn [r_clock r_acc r_horizon]. constructor.
  - destruct (r_dirty s); [|constructor]. cbn [r_clock r_acc r_horizon].
    destruct (Z.rem (r_flushes s) truncate_every =? truncate_every - 1); constructor.
Qed.

Lemma rstep_clock_mono : forall T s o, r_clock s <= r_clock (rstep T s o).
Proof. intros T s o. destruct (rstep_cases T s o); lia. Qed.

Lemma rrun_clock_mono : forall T ops s, r_clock s <= r_clock (fold_left (rstep T) ops s).
Proof.
  intros T ops s. apply (fold_left_inv (fun s' => r_clock s <= r_clock s')); [|apply Z.le_refl].
  intros s' o H. exact (Z.le_trans _ _ _ H (rstep_clock_mono T s' o)).
Qed.

(* a point older than the retention period when it is processed is never stored *)
Lemma too_old_ignored : forall T s p, tp_ts p < r_clock s - t_ret T -> rstep T s (RIns p) = s.
Proof. intros T s p H. cbn [rstep]. apply Z.ltb_lt in H. rewrite H. reflexivity. Qed.

(* accepted points are never dropped from the reference again *)
Lemma rstep_acc_prefix : forall T s o, exists l, r_acc (rstep T s o) = r_acc s ++ l.
Proof.
  intros T s o. destruct (rstep_cases T s o) as [|p|]; [exists []|exists [p]|exists []]; rewrite ?app_nil_r; reflexivity.
Qed.

(* every accepted point was inside the window when processed, hence never older than the final clock
   minus retention by more than the clock moved afterwards *)
Definition acc_ok (T:table) (s:rstate) : Prop := forall p, In p (r_acc s) -> tp_ts p <= r_clock s.
Lemma rstep_acc_ok : forall T s o, acc_ok T s -> acc_ok T (rstep T s o).
Proof.
  intros T s o H. unfold acc_ok. destruct (rstep_cases T s o) as [|p|]; [exact H| |exact H].
  intros q Hq. apply in_app_or in Hq. destruct Hq as [Hq|[<-|[]]]; [specialize (H q Hq)|]; lia.
Qed.

(* the truncation horizon never exceeds clock - retention: only wholly expired periods are removed *)
Definition horizon_ok (T:table) (s:rstate) : Prop := r_horizon s <= Z.max 0 (r_clock s - t_ret T).
Lemma rstep_horizon_ok : forall T s o, 0 < t_res T -> horizon_ok T s -> horizon_ok T (rstep T s o).
Proof.
  intros T s o Hr H. unfold horizon_ok in *. destruct (rstep_cases T s o) as [|p|]; [exact H|lia|].
  pose proof (div_grid (r_clock s - t_ret T) (t_res T) Hr). unfold floor_mul. lia.
Qed.
Lemma rstep_horizon_mono : forall T s o, r_horizon s <= r_horizon (rstep T s o).
Proof. intros T s o. destruct (rstep_cases T s o); lia. Qed.

Lemma rem_reaches_last : forall m n, 0 < m -> 0 <= n -> exists k, 0 <= k < m /\ Z.rem (n + k) m = m - 1.
Proof.
  intros m n Hm Hn. exists (m - 1 - n mod m). pose proof (Z.mod_pos_bound n m Hm). split; [lia|].
  rewrite Z.rem_mod_nonneg by lia. pose proof (Z.div_mod n m ltac:(lia)).
  replace (n + (m - 1 - n mod m)) with (m - 1 + (n / m) * m) by lia. rewrite Z.mod_add by lia. apply Z.mod_small. lia.
Qed.
(* among any ten consecutive data-carrying flushes one is truncating *)
Lemma truncating_within_ten : forall n, 0 <= n -> exists k, 0 <= k < truncate_every /\ Z.rem (n + k) truncate_every = truncate_every - 1.
Proof. intros n. apply rem_reaches_last. reflexivity. Qed.

(* once expired and truncated, a period stays away: a later point of that period is either too old
   (ignored) or, if accepted on the boundary, lands in a period that UpdateValue refuses to store *)
Lemma no_resurrection_clock : forall T s p, horizon_ok T s -> 0 < r_horizon s ->
  bucket (t_res T) (tp_ts p) <= r_horizon s -> 0 < t_res T ->
  tp_ts p < r_clock s - t_ret T \/ tp_ts p = r_clock s - t_ret T.
Proof.
  intros T s p H Hpos Hb Hr. unfold horizon_ok in H. unfold bucket, ceil_mul in Hb.
  pose proof (div_grid (- tp_ts p) (t_res T) Hr). lia.
Qed.

(* the write path of a truncating flush removes exactly the periods at or before truncateBefore *)
Lemma written_den : forall (cell:Type) (s:seq cell) res tb t, 0 < res -> res <= tb ->
  (forall u cs, s = Some (u, cs) -> res <= u) ->
  den cell res (truncate cell s res tb 0) t = if tb <? t then den cell res s t else None.
Proof.
  intros cell s res tb t Hr Htb Hs.
  rewrite (truncate_den cell s res tb 0 t Hr (or_intror Htb) (or_introl eq_refl) Hs).
  destruct (Z.eqb_spec tb 0); [lia|]. cbn [orb Z.eqb]. rewrite Bool.andb_true_r. reflexivity.
Qed.
Lemma written_removes_expired : forall (cell:Type) (s:seq cell) res tb t, 0 < res -> res <= tb ->
  (forall u cs, s = Some (u, cs) -> res <= u) -> t <= tb ->
  den cell res (truncate cell s res tb 0) t = None.
Proof. intros cell s res tb t Hr Htb Hs Ht. rewrite written_den, (ltb_false tb t Ht) by assumption. reflexivity. Qed.
Lemma written_keeps_live : forall (cell:Type) (s:seq cell) res tb t, 0 < res -> res <= tb ->
  (forall u cs, s = Some (u, cs) -> res <= u) -> tb < t ->
  den cell res (truncate cell s res tb 0) t = den cell res s t.
Proof. intros cell s res tb t Hr Htb Hs Ht. rewrite written_den, (ltb_true tb t Ht) by assumption. reflexivity. Qed.
