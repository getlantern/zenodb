(* CodecP.v — decode (encode e) = e for every expression; the translated codec table restores every
   behaviour-relevant field (C20) *)
From Coq Require Import String Lia.
From Zeno Require Import Base Codec Facts.
Local Open Scope string_scope.

Lemma agg_name_roundtrip : forall a, agg_of_name (agg_name a) = Some a.
Proof. intros []; reflexivity. Qed.
Lemma op_name_roundtrip : forall o, op_of_name (op_name o) = Some o.
Proof. intros []; reflexivity. Qed.

Theorem decode_encode : forall e fuel, (esize e <= fuel)%nat -> decode fuel (encode e) = Some e.
Proof.
  induction e as [n|k|e IHe lo hi|a w IHw|v IHv w IHw|o l IHl r IHr|cid e IHe|e IHe off|f e IHe];
    intros fuel H; cbn [esize] in H; (destruct fuel as [|fuel]; [lia|]); simpl.
  - reflexivity.
  - reflexivity.
  - rewrite IHe by lia. reflexivity.
  - rewrite agg_name_roundtrip, IHw by lia. reflexivity.
  - rewrite IHv, IHw by lia. reflexivity.
  - rewrite op_name_roundtrip, IHl, IHr by lia. reflexivity.
  - rewrite IHe by lia. reflexivity.
  - rewrite IHe by lia. reflexivity.
  - rewrite IHe by lia. reflexivity.
Qed.

Corollary roundtrip : forall e, decode (esize e) (encode e) = Some e.
Proof. intros e. apply decode_encode. lia. Qed.

Lemma codec_table_complete : codec_table_ok gen_codec = true.
Proof. vm_compute. reflexivity. Qed.

Lemma codec_every_type_restores_behaviour : forall row, In row gen_codec ->
  forall f, In f (behaviour_fields (fst (snd row))) -> smem f (restored row) = true.
Proof.
  (* over a variable table: unfolding codec_table_ok on gen_codec itself makes Qed evaluate the check again, twice *)
  generalize gen_codec codec_table_complete. intros t T row Hin f Hf. unfold codec_table_ok in T. rewrite forallb_forall in T.
  specialize (T row Hin). unfold codec_row_ok in T. rewrite forallb_forall in T. exact (T f Hf).
Qed.

Lemma codec_table_types : map (fun r => fst (snd r)) gen_codec =
  ["field"; "constant"; "bounded"; "aggregate"; "ifExpr"; "avg"; "binaryExpr"; "shift"; "unaryMathExpr"; "ptile"; "ptileOptimized"].
Proof. reflexivity. Qed.
