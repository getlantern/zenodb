(* AliasP.v — a deep-copied snapshot is immune to later updates of the live tree (C18);
   the shipped shallow copy is not. *)
From Coq Require Import Lia.
From Zeno Require Import Base Alias.
Local Open Scope nat_scope.

Section P.
Variable K : Type.
Variable keqb : K -> K -> bool.
Variable S : Type.
Variable sempty : S.

Notation heap := (heap S).
Notation atree := (atree K).

Lemma hset_length : forall i v (h:heap), length (hset S i v h) = length h.
Proof. induction i as [|i IH]; intros v [|x h]; cbn; auto. Qed.

Lemma hget_hset_other : forall i j v (h:heap), i <> j -> hget S sempty j (hset S i v h) = hget S sempty j h.
Proof.
  unfold hget. induction i as [|i IH]; intros j v [|x h] Hn; cbn; auto.
  - destruct j; [lia|reflexivity].
  - destruct j; [reflexivity|]. cbn. apply IH. lia.
Qed.

Lemma hget_app_l : forall j (h h2:heap), j < length h -> hget S sempty j (h ++ h2) = hget S sempty j h.
Proof. intros. unfold hget. apply app_nth1. assumption. Qed.

Lemma abind_in : forall k (t:atree) i, abind K keqb k t = Some i -> exists k', In (k', i) t.
Proof.
  intros k. induction t as [|[k' j] t IH]; intros i H; cbn in H; [discriminate|].
  destruct (keqb k k'); [inversion H; subst; exists k'; left; reflexivity|].
  destruct (IH i H) as [k2 Hin]. exists k2. right. exact Hin.
Qed.

(* a region [lo, hi) of the heap that the live tree never points into keeps its contents and
   the live tree keeps not pointing into it *)
Definition avoids (lo hi:nat) (t:atree) : Prop := forall k i, In (k, i) t -> i < lo \/ hi <= i.

Lemma astep_frame : forall lo hi (t:atree) (h:heap) o, avoids lo hi t -> hi <= length h ->
  let '(t', h') := astep K keqb S sempty (t, h) o in
  avoids lo hi t' /\ hi <= length h' /\ (forall j, lo <= j < hi -> hget S sempty j h' = hget S sempty j h).
Proof.
  intros lo hi t h o Hav Hlen. destruct o as [k f|]; cbn [astep ainsert aflush snd].
  - destruct (abind K keqb k t) as [i|] eqn:E.
    + split; [exact Hav|]. split; [rewrite hset_length; exact Hlen|].
      intros j Hj. apply hget_hset_other. destruct (abind_in k t i E) as [k' Hin].
      destruct (Hav k' i Hin); lia.
    + split.
      * intros k' i Hin. apply in_app_or in Hin. destruct Hin as [Hin|[Hin|[]]]; [exact (Hav k' i Hin)|].
        inversion Hin; subst. right. exact Hlen.
      * split; [rewrite app_length; cbn; lia|]. intros j Hj. apply hget_app_l. lia.
  - split; [intros k i []|]. split; [exact Hlen|]. intros; reflexivity.
Qed.

Lemma arun_frame : forall lo hi ops (t:atree) (h:heap), avoids lo hi t -> hi <= length h ->
  forall j, lo <= j < hi ->
  hget S sempty j (snd (fold_left (astep K keqb S sempty) ops (t, h))) = hget S sempty j h.
Proof.
  intros lo hi. induction ops as [|o ops IH]; intros t h Hav Hlen j Hj; cbn [fold_left]; [reflexivity|].
  pose proof (astep_frame lo hi t h o Hav Hlen) as F.
  destruct (astep K keqb S sempty (t, h) o) as [t' h'] eqn:E. destruct F as [F1 [F2 F3]].
  rewrite (IH t' h' F1 F2 j Hj). apply F3. exact Hj.
Qed.

Lemma copy_deep_from_eq : forall (t:atree) (h:heap) acc fresh n,
  copy_deep_from K S sempty t h acc fresh n =
  (acc ++ combine (map fst t) (seq n (length t)), fresh ++ map (fun ki => hget S sempty (snd ki) h) t).
Proof.
  induction t as [|[k i] t IH]; intros h acc fresh n; cbn [copy_deep_from map length seq combine fst snd].
  - rewrite 2 app_nil_r. reflexivity.
  - rewrite IH, <- 2 app_assoc. reflexivity.
Qed.

(* whatever the live store does after the snapshot (inserts into existing or new keys,
   flushes), every buffer of a deep-copied snapshot keeps the value it had when the snapshot was taken *)
Theorem deep_snapshot_stable : forall (t:atree) (h:heap) ops,
  ids_below K (length h) t ->
  let '(ts, h1) := copy_deep K S sempty (t, h) in
  forall k i, In (k, i) ts ->
  hget S sempty i (snd (fold_left (astep K keqb S sempty) ops (t, h1))) = hget S sempty i h1.
Proof.
  intros t h ops Hb. unfold copy_deep. rewrite copy_deep_from_eq. cbn [app].
  intros k i Hin. apply in_combine_r, in_seq in Hin.
  apply (arun_frame (length h) (length h + length t)).
  - intros k' i' Hin'. left. exact (Hb k' i' Hin').
  - rewrite app_length, map_length. lia.
  - exact Hin.
Qed.
End P.

(* the shipped shallow copy shares buffers: an insert after the snapshot is visible through it *)
Example shallow_snapshot_refuted :
  let th := ([(1%Z, 0%nat)], [10%Z]) in
  let '(ts, h1) := copy_shared Z Z th in
  aread Z Z.eqb Z 0%Z ts (snd (astep Z Z.eqb Z 0%Z (fst th, h1) (AIns Z Z 1%Z (fun v => (v + 5)%Z)))) 1%Z = Some 15%Z
  /\ aread Z Z.eqb Z 0%Z ts h1 1%Z = Some 10%Z.
Proof. vm_compute. auto. Qed.
