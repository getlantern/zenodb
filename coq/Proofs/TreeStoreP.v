(* TreeStoreP.v — the memstore of the row-store model (Model/Store.v: an association list key -> sequence with
   lookup / upsert) is refined by the radix tree of bytetree (Model/Tree.v): a well-formed radix tree whose nodes hold
   one column's sequences reads, key by key, as the association list does, and one Tree.Update corresponds to one
   upsert.  So every theorem of Proofs/StoreP.v about the memstore side holds of the structural tree. *)
From Zeno Require Import Base Seq StoreP TreeP.

Section Refine.
Variable cell : Type.
Definition kqb : list Z -> list Z -> bool := list_eqb Z.eqb.
Definition col : Type := seq cell.

(* a node's data is the column's sequence; an absent key reads as the empty sequence (Go: nil) *)
Definition rd (o:option col) : seq cell := match o with Some s => s | None => None end.
(* bytetree's Update applied to one column: node.doUpdate starts from nil data on a new node *)
Definition lift (g:seq cell -> seq cell) : option col -> col := fun o => g (rd o).

Definition refines (t:Tree.tree col) (m:Store.tree (list Z) cell) : Prop :=
  forall k, rd (Tree.tfind k t) = Store.lookup (list Z) kqb cell k m.

Lemma refines_empty : refines Tree.tnew [].
Proof. intros k. reflexivity. Qed.

Theorem update_refines_upsert g k (t:Tree.tree col) (m:Store.tree (list Z) cell) :
  wf_tree t -> refines t m ->
  wf_tree (Tree.tupdate (lift g) k t) /\ refines (Tree.tupdate (lift g) k t) (Store.upsert (list Z) kqb cell k g m).
Proof.
  intros WT R. destruct (@tupdate_map col (lift g) k t WT) as [WT' F]. split; [exact WT'|].
  intros k'. rewrite F. rewrite (lookup_upsert (list Z) kqb (@keyeq_spec) cell).
  unfold kqb. destruct (list_eqb Z.eqb k' k) eqn:E.
  - apply keyeq_spec in E. subst k'. cbn [rd]. unfold lift. rewrite (R k). reflexivity.
  - apply R.
Qed.

(* every memstore built by inserts: the radix tree and the association list agree on every key *)
Theorem memstore_refines (ins:list (list Z * (seq cell -> seq cell))) :
  let t := fold_left (fun t u => Tree.tupdate (lift (snd u)) (fst u) t) ins Tree.tnew in
  let m := fold_left (fun m u => Store.upsert (list Z) kqb cell (fst u) (snd u) m) ins [] in
  wf_tree t /\ refines t m.
Proof.
  cbv zeta. generalize (@tnew_wf col) refines_empty. generalize (@Tree.tnew col) (@nil (list Z * seq cell)).
  induction ins as [|[k g] ins IH]; intros t m WT R; simpl; [auto|].
  destruct (@update_refines_upsert g k t m WT R) as [WT2 R2]. exact (IH _ _ WT2 R2).
Qed.
End Refine.
