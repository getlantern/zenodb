(* SeqMergeP.v — den of Sequence.Merge and Sequence.UpdateValue.
   Sequence.SubMerge (Seq.sub_merge) has no theorem: the correspondence cases of Model/Corr05.v alone tie it
   to the code.  The period lookup of Sequence.ValueAtTime (Seq.cell_at_time) has no theorem and no user. *)
From Coq Require Import Lia.
From Zeno Require Import Base BaseP Seq SeqP.
Open Scope Z_scope.

(* Arithmetic on the resolution grid: points a whole number of periods apart compare as their indices do.
   Merge and UpdateValue meet the grid in two forms, period ends u - p * res on the grid of a start u, and
   multiples of res. *)
Lemma ltb_grid : forall res x y p q, 0 < res -> y - x = (q - p) * res -> (x <? y) = (p <? q).
Proof.
  intros res x y p q Hr H. destruct (Z.ltb_spec x y); destruct (Z.ltb_spec p q); try reflexivity; exfalso; nia.
Qed.
Lemma ltb_on_grid : forall res u p q, 0 < res -> (u - p * res <? u - q * res) = (q <? p).
Proof. intros res u p q Hr. apply (ltb_grid res); [assumption|lia]. Qed.
Lemma quot_on_grid : forall res u p q, 0 < res -> Z.quot (u - p * res - (u - q * res)) res = q - p.
Proof. intros res u p q Hr. apply quot_grid; [assumption|lia]. Qed.
Lemma quot_from_start : forall res u q, 0 < res -> Z.quot (u - (u - q * res)) res = q.
Proof. intros res u q Hr. apply quot_grid; [assumption|lia]. Qed.
Lemma ltb_mul_grid : forall res p q, 0 < res -> (p * res <? q * res) = (p <? q).
Proof. intros res p q Hr. apply (ltb_grid res); [assumption|lia]. Qed.
Lemma quot_mul_grid : forall res p q, 0 < res -> Z.quot (p * res - q * res) res = p - q.
Proof. intros res p q Hr. apply quot_grid; [assumption|lia]. Qed.

Lemma ruu_grid : forall res tb0 k, 0 < res -> 0 < k -> 0 <= tb0 ->
  exists m, 0 <= m /\ round_until_up tb0 res (k * res) = m * res.
Proof.
  intros res tb0 k Hr Hk Ht. unfold round_until_up, is_zero.
  destruct (Z.eqb_spec tb0 0) as [->|N]; [exists 0; lia|].
  destruct (Z.eqb_spec (k * res) 0); [nia|].
  exists (k - (k * res - tb0) / res). split; [|lia].
  pose proof (div_grid (k * res - tb0) res Hr). nia.
Qed.

Lemma ruu_below : forall res tb u t, 0 < res -> tb + res <= t -> 0 < t -> round_until_up tb res u < t.
Proof.
  intros res tb u t Hr Ht H0. unfold round_until_up, round_up, ceil_mul, is_zero.
  destruct (Z.eqb_spec tb 0) as [->|N]; [assumption|].
  destruct (Z.eqb_spec u 0) as [_|Nu].
  - pose proof (div_grid (- tb) res Hr). lia.
  - pose proof (div_grid (u - tb) res Hr). lia.
Qed.

Lemma round_up_grid : forall res ts0, 0 < res -> 0 < ts0 -> exists k, 0 < k /\ round_up ts0 res = k * res.
Proof.
  intros res ts0 Hr Ht. exists (cdiv ts0 res). split; [|reflexivity].
  pose proof (cdiv_spec ts0 res Hr) as H. cbv zeta in H. nia.
Qed.

(* a bound strictly inside the first period rounds down to the zero time on a grid anchored at a
   multiple of res: Truncate then removes nothing *)
Lemma rud_small : forall res asOf k, 0 < res -> 0 < asOf < res -> round_until_down asOf res (k * res) = 0.
Proof.
  intros res asOf k Hr Ha. unfold round_until_down, round_down, floor_mul, is_zero.
  destruct (Z.eqb_spec asOf 0); [lia|].
  destruct (Z.eqb_spec (k * res) 0) as [E|N].
  - rewrite Z.div_small by lia. reflexivity.
  - pose proof (cdiv_spec (k * res - asOf) res Hr) as H. cbv zeta in H.
    replace (cdiv (k * res - asOf) res) with k by nia. lia.
Qed.

Section M.
Variable cell : Type.
Variable cempty : cell.
Variable cmerge : cell -> cell -> cell.
Hypothesis cmerge_empty_l : forall x, cmerge cempty x = x.
Hypothesis cmerge_empty_r : forall x, cmerge x cempty = x.

(* denotation with the all-zero cell as default: a missing period reads as the empty cell *)
Definition dend (res:Z) (s:seq cell) (t:Z) : cell :=
  match den cell res s t with Some c => c | None => cempty end.

(* a stored sequence ends on the resolution grid (multiples of res since the zero time) *)
Definition aligned (res:Z) (s:seq cell) : Prop :=
  match s with None => True | Some (u, _) => exists k, 0 < k /\ u = k * res end.

Notation len l := (Z.of_nat (length l)).

Definition nthd (l:list cell) (i:Z) : cell :=
  if i <? 0 then cempty else match nthc (Z.to_nat i) l with Some c => c | None => cempty end.

(* nthd is nthz with the empty cell for a missing one: for the pieces Truncate cuts, the nthz lemmas of BaseP apply *)
Lemma nthd_nthz : forall l i, nthd l i = match nthz i l with Some c => c | None => cempty end.
Proof.
  intros l i. unfold nthd. destruct (Z.ltb_spec i 0); [rewrite nthz_neg by assumption|rewrite nthz_nthc by assumption]; reflexivity.
Qed.

Lemma nthd_out : forall l i, i < 0 \/ len l <= i -> nthd l i = cempty.
Proof.
  intros l i H. rewrite nthd_nthz. destruct H; [rewrite nthz_neg by assumption|rewrite nthz_beyond by assumption]; reflexivity.
Qed.

Lemma nthd_nil : forall i, nthd [] i = cempty.
Proof. intros. apply nthd_out. simpl. lia. Qed.

Lemma nthd_firstz : forall l n i, nthd (firstz n l) i = if i <? n then nthd l i else cempty.
Proof. intros l n i. rewrite !nthd_nthz, nthz_firstz. destruct (i <? n); reflexivity. Qed.

Lemma nthd_firstz_in : forall l n i, i < n \/ len l <= n -> nthd (firstz n l) i = nthd l i.
Proof.
  intros l n i H. rewrite nthd_firstz. destruct (Z.ltb_spec i n); [reflexivity|]. symmetry. apply nthd_out. lia.
Qed.

Lemma nthd_skipz : forall l n i,
  nthd (skipz n l) i = if i <? 0 then cempty else nthd l (i + Z.max 0 n).
Proof.
  intros l n i. destruct (Z.ltb_spec i 0); [apply nthd_out; left; assumption|].
  rewrite !nthd_nthz, nthz_skipz, Z.add_comm by assumption. reflexivity.
Qed.

Lemma nthd_skipz_pos : forall l n i, 0 <= n -> 0 <= i -> nthd (skipz n l) i = nthd l (i + n).
Proof.
  intros l n i Hn Hi. rewrite nthd_skipz, (ltb_false i 0 Hi), Z.max_r by assumption. reflexivity.
Qed.

(* ++, repeat, zipmerge and upd_nth have no nthz lemma: for them nthd is opened and the nthc lemmas apply *)
Lemma nthd_app : forall l1 l2 i,
  nthd (l1 ++ l2) i = if i <? len l1 then nthd l1 i else nthd l2 (i - len l1).
Proof.
  intros l1 l2 i. unfold nthd. rewrite nthc_app. destruct (Z.ltb_spec i 0).
  - rewrite (ltb_true i (len l1)) by lia. reflexivity.
  - rewrite ltb_to_nat by assumption. destruct (Z.ltb_spec i (len l1)); [reflexivity|].
    rewrite (ltb_false (i - len l1) 0), Z2Nat.inj_sub, Nat2Z.id by lia. reflexivity.
Qed.

Lemma nthd_empties : forall n i, nthd (empties cell cempty n) i = cempty.
Proof.
  intros n i. unfold nthd, empties. rewrite nthc_repeat.
  destruct (i <? 0); [reflexivity|]. destruct (_ <? _)%nat; reflexivity.
Qed.

Lemma nthc_zipmerge : forall n a b i,
  nthc i (zipmerge cell cmerge a b n) =
  if ((i <? n) && (i <? length a) && (i <? length b))%nat
  then match nthc i a, nthc i b with Some x, Some y => Some (cmerge x y) | _, _ => None end
  else None.
Proof.
  induction n as [|n IH]; intros a b i.
  - destruct a; destruct i; reflexivity.
  - destruct a as [|x a]; [destruct i; simpl; rewrite ?andb_false_r; reflexivity|].
    destruct b as [|y b]; [destruct i; simpl; rewrite ?andb_false_r; reflexivity|].
    destruct i as [|i]; simpl; [reflexivity|]. rewrite IH. reflexivity.
Qed.

Lemma nthd_zipmerge : forall a b n i,
  nthd (zipmerge cell cmerge a b n) i =
  if (i <? Z.of_nat n) && (i <? len a) && (i <? len b) then cmerge (nthd a i) (nthd b i) else cempty.
Proof.
  intros a b n i. unfold nthd. rewrite nthc_zipmerge. destruct (Z.ltb_spec i 0).
  - rewrite cmerge_empty_l. destruct (_ && _); reflexivity.
  - rewrite !ltb_to_nat by assumption.
    destruct (Z.ltb_spec i (Z.of_nat n)); [|reflexivity]. destruct (Z.ltb_spec i (len a)); [|reflexivity].
    destruct (Z.ltb_spec i (len b)); [cbn [andb]|reflexivity].
    destruct (nthc_in a (Z.to_nat i) ltac:(lia)) as [x ->]. destruct (nthc_in b (Z.to_nat i) ltac:(lia)) as [y ->]. reflexivity.
Qed.

Lemma nthd_upd : forall f l n i,
  nthd (upd_nth n f l) i =
  if (i =? Z.of_nat n) && (i <? len l) then f (nthd l i) else nthd l i.
Proof.
  intros f l n i. unfold nthd. rewrite nthc_upd.
  destruct (Z.ltb_spec i 0).
  - destruct (Z.eqb_spec i (Z.of_nat n)); [lia|reflexivity].
  - rewrite eqb_to_nat by assumption. destruct (i =? Z.of_nat n); [cbn [andb]|reflexivity].
    destruct (Z.ltb_spec i (len l)).
    + destruct (nthc_in l (Z.to_nat i) ltac:(lia)) as [x ->]. reflexivity.
    + rewrite nthc_beyond by lia. reflexivity.
Qed.

Lemma len_app : forall (l1 l2:list cell), len (l1 ++ l2) = len l1 + len l2.
Proof. intros. rewrite app_length. lia. Qed.
Lemma len_firstz : forall (l:list cell) n, len (firstz n l) = Z.min (Z.max 0 n) (len l).
Proof. intros. rewrite firstz_firstn, firstn_length. lia. Qed.
Lemma len_skipz : forall (l:list cell) n, len (skipz n l) = len l - Z.min (Z.max 0 n) (len l).
Proof. intros. rewrite skipz_skipn, skipn_length. lia. Qed.
Lemma len_empties : forall n, len (empties cell cempty n) = Z.max 0 n.
Proof. intros. unfold empties. rewrite repeat_length. lia. Qed.
Lemma length_zipmerge : forall n a b, length (zipmerge cell cmerge a b n) = Nat.min n (Nat.min (length a) (length b)).
Proof.
  induction n as [|n IH]; intros a b; [destruct a; reflexivity|].
  destruct a as [|x a]; [reflexivity|]. destruct b as [|y b]; [simpl; lia|]. simpl. rewrite IH. reflexivity.
Qed.
Lemma len_zipmerge : forall n a b, len (zipmerge cell cmerge a b n) = Z.min (Z.of_nat n) (Z.min (len a) (len b)).
Proof. intros. rewrite length_zipmerge. lia. Qed.

Lemma dend_none : forall res t, dend res None t = cempty.
Proof. reflexivity. Qed.

(* the denotation on and off the grid of period ends u0 - j * res (cf. den_on, den_off) *)
Lemma dend_on : forall res u cs t i, 0 < res -> u - t = i * res -> dend res (Some (u, cs)) t = nthd cs i.
Proof. intros res u cs t i Hr E. unfold dend. rewrite (den_on cell res u cs t i), nthd_nthz by assumption. reflexivity. Qed.
Lemma dend_off : forall res u0 u k cs t, 0 < res -> (forall j, t <> u0 - j * res) -> u = u0 - k * res ->
  dend res (Some (u, cs)) t = cempty.
Proof. intros res u0 u k cs t Hr Off E. unfold dend. rewrite (den_off cell res u0 u k) by assumption. reflexivity. Qed.

Lemma merge_none_r : forall res tb (a:seq cell), merge cell cempty cmerge a None res tb = a.
Proof. intros res tb [[u cs]|]; reflexivity. Qed.

(* Merge orders its operands by start first, so it is enough to look at startB <= startA.
   (The body of merge is large, and destruct on a BoolSpec re-types the whole goal for each test:
   in the two lemmas that open it, a test whose outcome is known is rewritten, the others are split by case.
   They open it by cbv, which unlike unfold keeps its lets: what can be done before the lets are expanded
   meets each term once.) *)
Lemma merge_swap : forall ua ca ub cb res tb0, ua < ub ->
  merge cell cempty cmerge (Some (ua, ca)) (Some (ub, cb)) res tb0 =
  merge cell cempty cmerge (Some (ub, cb)) (Some (ua, ca)) res tb0.
Proof.
  intros ua ca ub cb res tb0 H. cbv beta delta [merge] iota.
  rewrite (ltb_true ua ub H), (ltb_false ub ua (Z.lt_le_incl ua ub H)). reflexivity.
Qed.

(* the same list, computed in period-index space; D = (startA - startB) / res *)
Definition mbody (sa sb:list cell) (D:Z) : list cell :=
    let aP := Z.of_nat (length sa) in let bP := Z.of_nat (length sb) in
    let total := if D + bP <? aP then aP else D + bP in
    let lead := if aP <? D then aP else D in
    let sa1 := skipz lead sa in
    let part3 (sa2 sb2:list cell) := if D + bP <? aP then sa2 else if aP <? D + bP then sb2 else [] in
    let rest :=
      if D <? aP then
        let ov := (if D + bP <? aP then D + bP else aP) - lead in
        zipmerge cell cmerge sa1 sb (Z.to_nat ov) ++ part3 (skipz ov sa1) (skipz ov sb)
      else if aP <? D then empties cell cempty (D - aP) ++ part3 sa1 sb
      else part3 sa1 sb in
    firstz total ((firstz lead sa ++ rest) ++ empties cell cempty total).

(* lead' and ov' of Seq.merge: a number of cells, clamped at 0 *)
Lemma clamp_nonneg : forall x, 0 <= x -> (if 0 <? x then x else 0) = x.
Proof. intros x H. destruct (Z.ltb_spec 0 x); lia. Qed.

Lemma merge_ord_body : forall res u D sa sb tb0, 0 < res -> 0 <= D ->
  merge cell cempty cmerge (Some (u, sa)) (Some (u - D * res, sb)) res tb0 =
  if u - D * res <? round_until_up tb0 res u then Some (u, sa) else Some (u, mbody sa sb D).
Proof.
  intros res u D sa sb tb0 Hr HD. cbv beta delta [merge mbody] iota.
  rewrite (ltb_false u (u - D * res)) by nia.
  set (aP := len sa). set (bP := len sb).
  assert (HaP : 0 <= aP) by lia. assert (HbP : 0 <= bP) by lia. clearbody aP bP.
  cbv beta iota zeta. case (_ <? round_until_up _ _ _); [reflexivity|].
  (* the period ends of both operands lie on the grid of u: in index space Merge's four tests are those of mbody *)
  replace (u - D * res - bP * res) with (u - (D + bP) * res) by lia.
  rewrite 4 ltb_on_grid by assumption.
  (* by where sb starts relative to the end of sa; in each shape the quotients are differences of indices *)
  case (Z.ltb_spec D aP); intros Hov; [|case (Z.ltb_spec aP D); intros Hgap].
  - (* overlap, with sa reaching below the end of sb or not *)
    rewrite (ltb_false aP D) by lia.
    case (Z.ltb_spec (D + bP) aP); intros Hsa; rewrite !quot_from_start by assumption; rewrite !clamp_nonneg by lia; reflexivity.
  - rewrite (ltb_false (D + bP) aP) by lia.
    rewrite !quot_from_start, quot_on_grid by assumption. rewrite clamp_nonneg by lia. reflexivity.
  - (* D = aP *)
    rewrite (ltb_false (D + bP) aP) by lia.
    rewrite !quot_from_start by assumption. rewrite clamp_nonneg by lia. reflexivity.
Qed.

Lemma nthd_app_empties : forall l n i, nthd (l ++ empties cell cempty n) i = nthd l i.
Proof.
  intros l n i. rewrite nthd_app, nthd_empties.
  destruct (Z.ltb_spec i (len l)); [reflexivity|]. symmetry. apply nthd_out. right. assumption.
Qed.
Lemma nthd_empties_app : forall l n i, 0 <= n -> nthd (empties cell cempty n ++ l) i = nthd l (i - n).
Proof.
  intros l n i Hn. rewrite nthd_app, nthd_empties, len_empties, Z.max_r by assumption.
  destruct (Z.ltb_spec i n); [|reflexivity]. symmetry. apply nthd_out. left. lia.
Qed.

(* the overlap and what follows it: a zip of n cells, then r *)
Lemma nthd_zip_app : forall a b n r i, 0 <= n -> n <= len a -> n <= len b ->
  nthd (zipmerge cell cmerge a b (Z.to_nat n) ++ r) i =
  if i <? n then cmerge (nthd a i) (nthd b i) else nthd r (i - n).
Proof.
  intros a b n r i Hn Ha Hb. rewrite nthd_app, len_zipmerge, nthd_zipmerge, Z2Nat.id by assumption.
  rewrite !Z.min_l by lia.
  destruct (Z.ltb_spec i n); [|reflexivity].
  rewrite (ltb_true i (len a)), (ltb_true i (len b)) by lia. reflexivity.
Qed.

(* the lead and what follows it: the first n cells of l, then r *)
Lemma nthd_firstz_app : forall l n r i, 0 <= n <= len l ->
  nthd (firstz n l ++ r) i = if i <? n then nthd l i else nthd r (i - n).
Proof.
  intros l n r i Hn. rewrite nthd_app, nthd_firstz, len_firstz, Z.max_r, Z.min_l by lia.
  destruct (i <? n); reflexivity.
Qed.

Lemma mbody_nthd : forall sa sb D j, 0 <= D ->
  nthd (mbody sa sb D) j = cmerge (nthd sa j) (nthd sb (j - D)).
Proof.
  intros sa sb D j HD. unfold mbody.
  (* the cut to [total] cells and its padding change nothing: beyond [total] both operands are empty *)
  rewrite nthd_firstz, nthd_app_empties.
  destruct (Z.ltb_spec j (if D + len sb <? len sa then len sa else D + len sb)) as [_|Ht].
  2:{ destruct (Z.ltb_spec (D + len sb) (len sa)); rewrite (nthd_out sa j), (nthd_out sb (j - D)), cmerge_empty_l by lia; reflexivity. }
  (* in each shape the cells of sa before sb starts come first: there sb contributes nothing *)
  assert (Hlead : j < D -> nthd sa j = cmerge (nthd sa j) (nthd sb (j - D))).
  { intros H. rewrite (nthd_out sb (j - D)) by lia. symmetry. apply cmerge_empty_r. }
  destruct (Z.lt_trichotomy D (len sa)) as [Hov|[Hadj|Hgap]].
  - (* overlap: D cells of sa, the zip of the common periods, the rest of the operand that reaches further down *)
    rewrite (ltb_false (len sa) D), (ltb_true D (len sa)) by lia.
    rewrite nthd_firstz_app by lia. destruct (Z.ltb_spec j D); [apply Hlead; assumption|].
    pose proof (len_skipz sa D) as Hl. rewrite Z.max_r, Z.min_l in Hl by lia.
    destruct (Z.ltb_spec (D + len sb) (len sa)) as [Hsa|Hsb].
    + (* sa reaches further: all of sb is zipped *)
      rewrite Z.add_simpl_l, nthd_zip_app, nthd_skipz_pos, Z.sub_add by lia.
      destruct (Z.ltb_spec (j - D) (len sb)); [reflexivity|].
      rewrite !nthd_skipz_pos by lia. rewrite (nthd_out sb (j - D)), cmerge_empty_r by lia. f_equal. lia.
    + (* sb reaches at least as far: the rest of sa is zipped *)
      rewrite nthd_zip_app, nthd_skipz_pos, Z.sub_add by lia.
      destruct (Z.ltb_spec (j - D) (len sa - D)); [reflexivity|].
      rewrite (nthd_out sa j), cmerge_empty_l by lia.
      destruct (Z.ltb_spec (len sa) (D + len sb)).
      * rewrite nthd_skipz_pos by lia. f_equal. lia.
      * rewrite nthd_nil. symmetry. apply nthd_out. lia.
  - (* adjacent: sa, then sb *)
    rewrite (ltb_false (len sa) D), (ltb_false D (len sa)), (ltb_false (D + len sb) (len sa)) by lia.
    rewrite nthd_firstz_app by lia. destruct (Z.ltb_spec j D); [apply Hlead; assumption|].
    rewrite (nthd_out sa j), cmerge_empty_l by lia.
    destruct (Z.ltb_spec (len sa) (D + len sb)); [reflexivity|].
    rewrite nthd_nil. symmetry. apply nthd_out. lia.
  - (* gap: sa, empty cells, sb *)
    rewrite (ltb_true (len sa) D), (ltb_false D (len sa)), (ltb_false (D + len sb) (len sa)),
      (ltb_true (len sa) (D + len sb)) by lia.
    rewrite nthd_firstz_app by lia. destruct (Z.ltb_spec j (len sa)); [apply Hlead; lia|].
    rewrite nthd_empties_app, (nthd_out sa j), cmerge_empty_l by lia. f_equal. lia.
Qed.

Lemma merge_apart_den : forall res u D sa sb tb0 t, 0 < res -> 0 <= D -> round_until_up tb0 res u < t ->
  dend res (merge cell cempty cmerge (Some (u, sa)) (Some (u - D * res, sb)) res tb0) t =
  cmerge (dend res (Some (u, sa)) t) (dend res (Some (u - D * res, sb)) t).
Proof.
  intros res u D sa sb tb0 t Hr HD Ht. rewrite merge_ord_body by assumption.
  destruct (on_grid_dec res u t Hr) as [[j ->]|Off].
  - rewrite (dend_on res _ sa _ j), (dend_on res _ sb _ (j - D)) by lia.
    destruct (Z.ltb_spec (u - D * res) (round_until_up tb0 res u)) as [c|c]; rewrite (dend_on res _ _ _ j) by lia.
    + (* sb lies wholly below the truncation bound *)
      rewrite (nthd_out sb (j - D)) by nia. symmetry. apply cmerge_empty_r.
    + apply mbody_nthd. assumption.
  - rewrite (dend_off res u _ 0 sa), (dend_off res u _ D sb) by (assumption || lia).
    rewrite cmerge_empty_l. destruct (_ <? _); apply (dend_off res u _ 0); assumption || lia.
Qed.

(* Merge without assuming commutativity of cmerge: the operand that ends later is the left argument *)
Theorem merge_den_ord : forall res a b tb t, 0 < res -> aligned res a -> aligned res b ->
  round_until_up tb res (Z.max (s_until a) (s_until b)) < t ->
  dend res (merge cell cempty cmerge a b res tb) t =
  if s_until a <? s_until b then cmerge (dend res b t) (dend res a t)
  else cmerge (dend res a t) (dend res b t).
Proof.
  intros res a b tb t Hr Ha Hb Ht.
  destruct a as [[ua ca]|]; destruct b as [[ub cb]|].
  - destruct Ha as [ka [Hka ->]]. destruct Hb as [kb [Hkb ->]]. cbn [s_until] in *.
    destruct (Z.ltb_spec (ka * res) (kb * res)) as [c|c].
    + rewrite Z.max_r in Ht by lia. rewrite merge_swap by assumption.
      replace (ka * res) with (kb * res - (kb - ka) * res) by lia.
      apply merge_apart_den; try assumption. nia.
    + rewrite Z.max_l in Ht by lia.
      replace (kb * res) with (ka * res - (ka - kb) * res) by lia.
      apply merge_apart_den; try assumption. nia.
  - destruct Ha as [ka [Hka ->]]. cbn [s_until merge].
    rewrite (ltb_false (ka * res) 0), dend_none, cmerge_empty_r by nia. reflexivity.
  - destruct Hb as [kb [Hkb ->]]. cbn [s_until merge].
    rewrite (ltb_true 0 (kb * res)), dend_none, cmerge_empty_r by nia. reflexivity.
  - cbn [s_until merge]. rewrite dend_none, cmerge_empty_r. reflexivity.
Qed.

(* cmerge has to be commutative here: Merge swaps its operands when a ends before b, so the cells of
   the common periods are cmerge (b-cell) (a-cell); without commutativity the statement is false
   (res 3, a = Some (3,[5]), b = Some (6,[7;8]), t = 3 and a non-commutative cmerge with unit cempty).
   [merge_den_ord] above does without it. *)
Theorem merge_den : forall res a b tb t, (forall x y, cmerge x y = cmerge y x) ->
  0 < res -> aligned res a -> aligned res b ->
  round_until_up tb res (Z.max (s_until a) (s_until b)) < t ->
  dend res (merge cell cempty cmerge a b res tb) t = cmerge (dend res a t) (dend res b t).
Proof.
  intros res a b tb t Hc Hr Ha Hb Ht. rewrite merge_den_ord by assumption.
  destruct (_ <? _); [apply Hc|reflexivity].
Qed.

(* doWrite's and UpdateValue's truncation keeps every period strictly above the bound, for any bound >= 0
   ([truncate_den] covers bound = 0 and bound >= res; a bound in (0, res) truncates nothing) *)
Lemma truncate_den_above : forall res (s:seq cell) asOf t, 0 < res -> 0 <= asOf -> aligned res s ->
  asOf < t -> den cell res (truncate cell s res asOf 0) t = den cell res s t.
Proof.
  intros res s asOf t Hr Ha Hal Ht.
  assert (Hbig : asOf = 0 \/ res <= asOf -> den cell res (truncate cell s res asOf 0) t = den cell res s t).
  { intros HA. rewrite truncate_den; [|assumption|exact HA|left; reflexivity|].
    - rewrite (ltb_true asOf t Ht), orb_true_r. reflexivity.
    - intros u cs ->. destruct Hal as [k [Hk ->]]. nia. }
  destruct (Z.eq_dec asOf 0); [apply Hbig; left; assumption|].
  destruct (Z_lt_le_dec asOf res); [|apply Hbig; right; assumption].
  destruct s as [[u cs]|]; [|reflexivity].
  destruct Hal as [k [Hk ->]]. unfold truncate.
  rewrite (rud_small res asOf k) by lia. reflexivity.
Qed.

(* UpdateValue is: move the cells to their place under the new start, then apply f to one of them.
   This is the second half, at any time t, on or off the grid *)
Lemma dend_upd : forall res u l p f t, 0 < res -> 0 <= p < len l ->
  dend res (Some (u, upd_nth (Z.to_nat p) f l)) t =
  if t =? u - p * res then f (dend res (Some (u, l)) t) else dend res (Some (u, l)) t.
Proof.
  intros res u l p f t Hr Hp. destruct (on_grid_dec res u t Hr) as [[j ->]|Off].
  - rewrite !(dend_on res u _ _ j), nthd_upd, Z2Nat.id by lia.
    destruct (Z.eqb_spec j p) as [->|N].
    + rewrite Z.eqb_refl, (ltb_true p (len l)) by lia. reflexivity.
    + destruct (Z.eqb_spec (u - j * res) (u - p * res)); [nia|reflexivity].
  - destruct (Z.eqb_spec t (u - p * res)) as [E|_]; [destruct (Off p E)|].
    rewrite !(dend_off res u u 0) by (assumption || lia). reflexivity.
Qed.

(* the first half: cell lists that agree index by index (k periods apart) denote the same *)
Lemma dend_ext : forall res u l u' l' k t, 0 < res -> u' = u + k * res ->
  (forall i, u - t = i * res -> nthd l' (i + k) = nthd l i) ->
  dend res (Some (u', l')) t = dend res (Some (u, l)) t.
Proof.
  intros res u l u' l' k t Hr -> H. destruct (on_grid_dec res u t Hr) as [[j ->]|Off].
  - rewrite (dend_on res _ l' _ (j + k)), (dend_on res _ l _ j) by lia. apply H. lia.
  - rewrite (dend_off res u _ (- k)), (dend_off res u _ 0) by (assumption || lia). reflexivity.
Qed.

Lemma dend_above : forall res u cs t, u < t -> dend res (Some (u, cs)) t = cempty.
Proof. intros res u cs t H. unfold dend, den. destruct (Z.leb_spec 0 (u - t)); [lia|reflexivity]. Qed.

Lemma dend_single : forall res u c t, 0 < res -> dend res (Some (u, [c])) t = if t =? u then c else cempty.
Proof.
  intros res u c t Hr. destruct (on_grid_dec res u t Hr) as [[j ->]|Off].
  - rewrite (dend_on res u _ _ j) by lia. destruct (Z.eqb_spec (u - j * res) u) as [E|N].
    + replace j with 0 by nia. reflexivity.
    + apply nthd_out. assert (j <> 0) by (intros ->; lia). cbn. lia.
  - destruct (Z.eqb_spec t u) as [E|_]; [destruct (Off 0); lia|]. apply (dend_off res u u 0); assumption || lia.
Qed.

Theorem update_value_den : forall res s ts tb f t, 0 < res -> aligned res s -> 0 < ts -> 0 <= tb ->
  round_until_up tb res (if is_zero (s_until s) then round_up ts res else s_until s) < t ->
  dend res (update_value cell cempty s ts res tb f) t =
    if t =? round_up ts res then f (dend res s t) else dend res s t.
Proof.
  intros res s ts0 tb0 f t Hr Ha Hts Htb Ht.
  destruct (round_up_grid res ts0 Hr Hts) as [kt [Hkt Ets]].
  unfold update_value. rewrite Ets in *. clear Ets Hts ts0.
  destruct s as [[u cs]|].
  - destruct Ha as [ks [Hks ->]]. cbn [s_until] in *. unfold is_zero in *.
    rewrite (proj2 (Z.eqb_neq (ks * res) 0)) in * by nia.
    destruct (ruu_grid res tb0 ks Hr Hks Htb) as [m [Hm Etb]]. rewrite Etb in *. clear Etb Htb tb0.
    destruct (Z.leb_spec (kt * res) (m * res)) as [c0|c0].
    + (* the point is at or below the bound: nothing is written *)
      unfold dend. rewrite truncate_den_above; [|assumption|nia|exists ks; auto|assumption].
      destruct (Z.eqb_spec t (kt * res)); [lia|reflexivity].
    + rewrite !quot_mul_grid, !ltb_mul_grid by assumption.
      apply Z.mul_lt_mono_pos_r in c0; [|exact Hr].
      destruct (Z.ltb_spec ks m) as [c1|c1]; cbn [orb].
      { (* the old cells all lie below the bound: start afresh *)
        rewrite dend_single, (dend_above res (ks * res)) by (assumption || nia). reflexivity. }
      rewrite (ltb_false (kt - m) (kt - ks)) by lia. destruct (Z.ltb_spec ks kt) as [c3|c3].
      * (* a later period: the old cells move down by the gap, cut at the bound *)
        rewrite (dend_upd res _ _ 0); [|assumption|rewrite len_app, len_empties; lia]. rewrite Z.sub_0_r.
        rewrite (dend_ext res (ks * res) cs _ _ (kt - ks)); [reflexivity|assumption|lia|].
        intros i Hi. rewrite nthd_empties_app, Z.add_simpl_r by lia. apply nthd_firstz_in.
        (* the cut keeps min (ks - m) (len cs) cells: all that end above the bound *)
        destruct (Z.ltb_spec (kt - m) (len cs + (kt - ks))); [left; nia|right; lia].
      * (* a period at or before the start: update in place, padding up to it if need be *)
        replace (kt * res) with (ks * res - (ks - kt) * res) by lia.
        destruct (Z.leb_spec (len cs) (ks - kt)); [|apply dend_upd; [assumption|lia]].
        rewrite dend_upd; [|assumption|rewrite len_app, len_empties; lia].
        rewrite (dend_ext res (ks * res) cs _ _ 0); [reflexivity|assumption|lia|].
        intros i _. rewrite Z.add_0_r. apply nthd_app_empties.
  - cbn [s_until] in *. unfold is_zero in *. cbn [Z.eqb] in *.
    destruct (ruu_grid res tb0 kt Hr Hkt Htb) as [m [Hm Etb]]. rewrite Etb in *. clear Etb Htb tb0.
    destruct (Z.leb_spec (kt * res) (m * res)) as [c0|c0].
    + cbn [truncate]. rewrite dend_none. destruct (Z.eqb_spec t (kt * res)); [lia|reflexivity].
    + rewrite dend_single, dend_none by assumption. reflexivity.
Qed.

(* Merge keeps the later of the two starts *)
Lemma merge_aligned : forall res a b tb, 0 < res -> aligned res a -> aligned res b ->
  aligned res (merge cell cempty cmerge a b res tb).
Proof.
  intros res a b tb Hr Ha Hb.
  destruct a as [[ua ca]|]; destruct b as [[ub cb]|]; try assumption.
  destruct Ha as [ka [Hka ->]]. destruct Hb as [kb [Hkb ->]].
  destruct (Z.lt_ge_cases (ka * res) (kb * res)) as [c|c].
  - rewrite merge_swap by assumption. replace (ka * res) with (kb * res - (kb - ka) * res) by lia.
    rewrite merge_ord_body by nia. case (_ <? _); exists kb; auto.
  - replace (kb * res) with (ka * res - (ka - kb) * res) by lia.
    rewrite merge_ord_body by nia. case (_ <? _); exists ka; auto.
Qed.

Lemma truncate_aligned : forall res s asOf, aligned res s -> aligned res (truncate cell s res asOf 0).
Proof.
  intros res s asOf Ha. destruct s as [[u cs]|]; [|exact I].
  unfold truncate. change (round_until_down 0 res u) with 0. change (is_zero 0) with true. cbv iota.
  destruct (is_zero (round_until_down asOf res u)); [exact Ha|].
  destruct (_ <=? 0); [exact I|exact Ha].
Qed.

Lemma update_value_aligned : forall res s ts tb f, 0 < res -> 0 < ts -> aligned res s ->
  aligned res (update_value cell cempty s ts res tb f).
Proof.
  intros res s ts tb f Hr Hts Ha.
  destruct (round_up_grid res ts Hr Hts) as [kt [Hkt Ets]].
  assert (Hk : aligned res (Some (round_up ts res, [f cempty]))) by (exists kt; auto).
  unfold update_value.
  case (_ <=? _); [apply truncate_aligned; assumption|].
  destruct s as [[u cs]|]; [|exact Hk].
  case (_ || _); [exact Hk|]. case (u <? round_up ts res); [|exact Ha].
  exists kt; auto.
Qed.
End M.


Print Assumptions merge_den_ord.
Print Assumptions merge_den.
Print Assumptions update_value_den.
Print Assumptions merge_aligned.
Print Assumptions update_value_aligned.
