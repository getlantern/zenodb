(* PinP.v — proofs about Model/Pin.v: with capture and registration in one critical section every scan
   returns exactly the points applied before it began, whatever flushes and removals run meanwhile;
   with the two separated there is a schedule that loses a file's worth of points. *)
From Coq Require Import List Arith Bool Lia.
Import ListNotations.
From Zeno Require Import ListP Pin.

Lemma mem_true_iff x l : mem x l = true <-> In x l.
Proof.
  unfold mem. rewrite existsb_exists. split.
  - intros [y [Hin Heq]]. apply Nat.eqb_eq in Heq. subst. exact Hin.
  - intros Hin. exists x. split; [exact Hin|apply Nat.eqb_refl].
Qed.

Lemma nth_error_set_nth_same {A} (l:list A) i x y : nth_error l i = Some y -> nth_error (set_nth i x l) i = Some x.
Proof. revert i; induction l as [|a l IH]; intros [|i] H; cbn in *; try discriminate; auto. Qed.

Lemma nth_error_set_nth_other {A} (l:list A) i j x : i <> j -> nth_error (set_nth i x l) j = nth_error l j.
Proof.
  revert i j; induction l as [|a l IH]; intros [|i] [|j] H; cbn; auto; try congruence.
Qed.

Lemma length_set_nth {A} (l:list A) i x : length (set_nth i x l) = length l.
Proof. revert i; induction l as [|a l IH]; intros [|i]; cbn; auto. Qed.

Lemma In_set_nth {A} (l:list A) i x z : In z (set_nth i x l) -> z = x \/ In z l.
Proof.
  revert i; induction l as [|a l IH]; intros [|i] H; cbn in *; auto.
  - destruct H as [H|H]; auto.
  - destruct H as [H|H]; auto. destruct (IH _ H); auto.
Qed.

(* The invariant of the atomic protocol: no scan is ever between capture and registration; the file of a registered
   scan, like the current file, is in the directory; a finished scan has read its whole snapshot. *)
Definition scan_inv (s:pstate) (sc:pscan) : Prop :=
  match ps_phase sc with
  | Captured => False
  | Pinned => match ps_file sc with Some f => In (pf_id f) (p_disk s) | None => True end
  | Finished from upto => from = 0 /\ upto = ps_n sc
  end.

Definition pinv (s:pstate) : Prop :=
  (match p_cur s with Some f => In (pf_id f) (p_disk s) | None => True end) /\
  Forall (scan_inv s) (p_scans s).

Lemma pinv_init : pinv pinit.
Proof. split; cbn; auto. Qed.

Lemma scan_inv_disk s s' sc :
  (forall d, In d (p_disk s) -> In d (p_disk s')) -> scan_inv s sc -> scan_inv s' sc.
Proof.
  unfold scan_inv. intros Hd H. destruct (ps_phase sc); auto. destruct (ps_file sc); auto.
Qed.

Lemma pinned_in_ids s sc f : In sc (p_scans s) -> ps_phase sc = Pinned -> ps_file sc = Some f -> In (pf_id f) (pinned_ids s).
Proof.
  intros Hin Hp Hf. unfold pinned_ids. apply in_flat_map. exists sc. split; [exact Hin|]. rewrite Hp, Hf. left. reflexivity.
Qed.

Lemma kept_by_remover s ids d : forallb (removable s) ids = true -> In d (p_disk s) ->
  file_id (p_cur s) = Some d \/ In d (pinned_ids s) -> In d (filter (fun d0 => negb (mem d0 ids)) (p_disk s)).
Proof.
  intros Hr Hd Hp. apply filter_In. split; [exact Hd|]. destruct (mem d ids) eqn:Hm; [|reflexivity].
  apply mem_true_iff in Hm. rewrite forallb_forall in Hr. specialize (Hr d Hm). unfold removable in Hr.
  apply andb_true_iff in Hr as [H1 H2].
  destruct Hp as [Hp|Hp]; [rewrite Hp, Nat.eqb_refl in H1|apply mem_true_iff in Hp; rewrite Hp in H2]; discriminate.
Qed.

Lemma pstep_atomic_inv s o : pinv s -> pinv (pstep true s o).
Proof.
  intros H. assert (Hi := H). destruct Hi as [Hc Hs]. destruct o as [| |ids| |i|i]; cbn [pstep].
  - (* insert: neither directory nor scans change *) exact H.
  - (* flush: the directory only grows *)
    destruct (Nat.ltb _ _); [|exact H]. split; cbn.
    + apply in_or_app. right. left. reflexivity.
    + revert Hs. apply Forall_impl. intros sc. apply scan_inv_disk. cbn. intros d Hd. apply in_or_app. left. exact Hd.
  - (* remove: the current file and the files of registered scans stay *)
    destruct (forallb (removable s) ids) eqn:Hr; [|exact H]. split; cbn.
    + destruct (p_cur s) as [f|] eqn:Ecur; [|exact I]. apply kept_by_remover; [exact Hr|exact Hc|]. rewrite Ecur. left. reflexivity.
    + rewrite Forall_forall in *. intros sc Hin. specialize (Hs sc Hin). unfold scan_inv in *.
      destruct (ps_phase sc) eqn:Hp; auto. destruct (ps_file sc) as [f|] eqn:Hf; auto.
      cbn. apply kept_by_remover; [exact Hr|exact Hs|]. right. exact (pinned_in_ids s sc f Hin Hp Hf).
  - (* begin: the new scan is registered on the current file, which is in the directory *)
    split; cbn; [exact Hc|]. apply Forall_app. split; [exact Hs|].
    constructor; [|constructor]. unfold scan_inv. cbn. destruct (p_cur s); auto.
  - (* pin: no scan is in phase Captured *)
    destruct (nth_error (p_scans s) i) as [sc|] eqn:E; [|exact H].
    destruct (ps_phase sc) eqn:Hp; try exact H.
    exfalso. rewrite Forall_forall in Hs. specialize (Hs sc (nth_error_In _ _ E)). unfold scan_inv in Hs. rewrite Hp in Hs. exact Hs.
  - (* read: the file is there, so the scan reads from 0 *)
    destruct (nth_error (p_scans s) i) as [sc|] eqn:E; [|exact H].
    destruct (ps_phase sc) eqn:Hp; try exact H.
    split; cbn; [exact Hc|].
    rewrite Forall_forall in *. intros z Hz. apply In_set_nth in Hz. destruct Hz as [->|Hz]; [|exact (Hs z Hz)].
    unfold scan_inv. cbn. split; [|reflexivity].
    specialize (Hs sc (nth_error_In _ _ E)). unfold scan_inv in Hs. rewrite Hp in Hs.
    destruct (ps_file sc) as [f|]; [|reflexivity]. apply mem_true_iff in Hs. rewrite Hs. reflexivity.
Qed.

Lemma prun_atomic_inv_from ops s : pinv s -> pinv (fold_left (pstep true) ops s).
Proof. apply fold_left_inv. exact pstep_atomic_inv. Qed.

Lemma prun_atomic_inv ops : pinv (prun true ops).
Proof. apply prun_atomic_inv_from. apply pinv_init. Qed.

Lemma scan_inv_reach ops sc : In sc (p_scans (prun true ops)) -> scan_inv (prun true ops) sc.
Proof. intros Hin. destruct (prun_atomic_inv ops) as [_ Hs]. rewrite Forall_forall in Hs. exact (Hs sc Hin). Qed.

(* every finished scan of every schedule returned the points [0, ps_n) *)
Theorem atomic_scans_return_their_snapshot ops sc from upto :
  In sc (p_scans (prun true ops)) -> ps_phase sc = Finished from upto -> from = 0 /\ upto = ps_n sc.
Proof.
  intros Hin Hp. pose proof (scan_inv_reach ops sc Hin) as Hs. unfold scan_inv in Hs. rewrite Hp in Hs. exact Hs.
Qed.

Theorem atomic_all_scans_ok ops : forallb scan_ok (p_scans (prun true ops)) = true.
Proof.
  apply forallb_forall. intros sc Hin. unfold scan_ok. destruct (ps_phase sc) eqn:Hp; auto.
  destruct (atomic_scans_return_their_snapshot ops sc _ _ Hin Hp) as [-> ->]. rewrite !Nat.eqb_refl. reflexivity.
Qed.

(* a file with a registered reader is never deleted *)
Theorem pinned_file_stays ops sc f :
  In sc (p_scans (prun true ops)) -> ps_phase sc = Pinned -> ps_file sc = Some f -> In (pf_id f) (p_disk (prun true ops)).
Proof.
  intros Hin Hp Hf. pose proof (scan_inv_reach ops sc Hin) as Hs. unfold scan_inv in Hs. rewrite Hp, Hf in Hs. exact Hs.
Qed.

(* ps_n is the number of points applied before the scan began. *)
Definition count_ins (ops:list pop) : nat := length (filter (fun o => match o with PInsert => true | _ => false end) ops).
Definition count_begin (ops:list pop) : nat := length (filter (fun o => match o with PBegin => true | _ => false end) ops).

Lemma pstep_n atomic s o : p_n (pstep atomic s o) = match o with PInsert => S (p_n s) | _ => p_n s end.
Proof.
  destruct o as [| |ids| |i|i]; cbn [pstep]; auto.
  - destruct (Nat.ltb _ _); reflexivity.
  - destruct (forallb _ _); reflexivity.
  - destruct (nth_error _ _) as [sc|]; auto. destruct (ps_phase sc); reflexivity.
  - destruct (nth_error _ _) as [sc|]; auto. destruct (ps_phase sc); reflexivity.
Qed.

(* what a scan holds from its capture on: a step changes the phase of at most one scan and appends at most one *)
Definition snap (sc:pscan) : option pfile * nat := (ps_file sc, ps_n sc).

Lemma map_set_nth {A B} (f:A -> B) (l:list A) i x y : nth_error l i = Some y -> f x = f y -> map f (set_nth i x l) = map f l.
Proof. revert i; induction l as [|a l IH]; intros [|i] E H; cbn in *; try discriminate; [injection E as ->|]; f_equal; auto. Qed.

Lemma pstep_snaps atomic s o :
  map snap (p_scans (pstep atomic s o)) = map snap (p_scans s) ++ match o with PBegin => [(p_cur s, p_n s)] | _ => [] end.
Proof.
  destruct o as [| |ids| |i|i]; cbn [pstep]; rewrite ?app_nil_r; try reflexivity.
  - destruct (Nat.ltb _ _); reflexivity.
  - destruct (forallb _ _); reflexivity.
  - cbn. apply map_app.
  - destruct (nth_error _ _) as [sc|] eqn:E; [|reflexivity]. destruct (ps_phase sc); try reflexivity. apply (map_set_nth snap _ _ _ _ E). reflexivity.
  - destruct (nth_error _ _) as [sc|] eqn:E; [|reflexivity]. destruct (ps_phase sc); try reflexivity. apply (map_set_nth snap _ _ _ _ E). reflexivity.
Qed.

Lemma pstep_scans_len atomic s o :
  length (p_scans (pstep atomic s o)) = match o with PBegin => S (length (p_scans s)) | _ => length (p_scans s) end.
Proof.
  rewrite <- (map_length snap), pstep_snaps, app_length, !map_length. destruct o; cbn; lia.
Qed.

Lemma run_snaps atomic ops s : exists more, map snap (p_scans (fold_left (pstep atomic) ops s)) = map snap (p_scans s) ++ more.
Proof.
  apply (fold_left_inv (fun s' => exists more, map snap (p_scans s') = map snap (p_scans s) ++ more)).
  - intros s' o [more E]. rewrite pstep_snaps, E, <- app_assoc. eexists. reflexivity.
  - exists []. symmetry. apply app_nil_r.
Qed.

Lemma run_counts atomic ops s :
  p_n (fold_left (pstep atomic) ops s) = p_n s + count_ins ops /\
  length (p_scans (fold_left (pstep atomic) ops s)) = length (p_scans s) + count_begin ops.
Proof.
  revert s; induction ops as [|o ops IH]; intros s; cbn [fold_left].
  - unfold count_ins, count_begin. cbn. lia.
  - destruct (IH (pstep atomic s o)) as [-> ->]. rewrite pstep_n, pstep_scans_len.
    unfold count_ins, count_begin. destruct o; cbn; auto.
Qed.

(* the scan begun after [pre] has a snapshot of exactly the points inserted in [pre] *)
Theorem snapshot_is_history_prefix atomic pre post :
  exists sc, nth_error (p_scans (prun atomic (pre ++ PBegin :: post))) (count_begin pre) = Some sc /\ ps_n sc = count_ins pre.
Proof.
  unfold prun. rewrite fold_left_app. cbn [fold_left].
  destruct (run_counts atomic pre pinit) as [Hn Hl]. cbn in Hn, Hl. set (s1 := fold_left (pstep atomic) pre pinit) in *.
  destruct (run_snaps atomic post (pstep atomic s1 PBegin)) as [more E]. set (s2 := fold_left (pstep atomic) post _) in *.
  rewrite pstep_snaps, <- app_assoc in E.
  assert (nth_error (map snap (p_scans s2)) (count_begin pre) = Some (p_cur s1, count_ins pre)) as N.
  { rewrite E, nth_error_app2; rewrite map_length, Hl; [|lia]. rewrite Nat.sub_diag, <- Hn. reflexivity. }
  rewrite nth_error_map in N. destruct (nth_error _ (count_begin pre)) as [sc|]; [|discriminate N].
  exists sc. split; [reflexivity|]. injection N as _ N. exact N.
Qed.

(* The shipped structure (capture, unlock, lock, pin) loses data on some schedule. *)
Definition lost_file_schedule : list pop :=
  [PInsert; PInsert; PFlush;            (* file 0 holds points 0 and 1 *)
   PBegin;                              (* the scan captures file 0 and an empty memstore copy ... *)
   PInsert; PFlush; PInsert; PFlush;    (* ... two flushes later file 0 is old ... *)
   PRemove [0];                         (* ... nobody is registered on it: deleted *)
   PPin 0; PRead 0].                    (* the scan registers too late and finds no file: "no file store yet" *)

Theorem nonatomic_refuted : forallb scan_ok (p_scans (prun false lost_file_schedule)) = false.
Proof. vm_compute. reflexivity. Qed.

Theorem nonatomic_loses_whole_file :
  map ps_phase (p_scans (prun false lost_file_schedule)) = [Finished 2 2] /\
  map ps_phase (p_scans (prun true lost_file_schedule)) = [Finished 0 2].
Proof. vm_compute. split; reflexivity. Qed.
