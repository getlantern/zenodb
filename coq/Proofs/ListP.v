(* Facts about lists that the standard library lacks.  No scope is opened here: the files on
   the replication log, the crash model and the pin model count in nat and import nothing of Base. *)
From Coq Require Import List PeanoNat Bool.
Import ListNotations.

Lemma firstn_S_nth {A} (l:list A) n d : n < length l -> firstn (S n) l = firstn n l ++ [nth n l d].
Proof.
  revert n; induction l as [|a l IH]; intros n H; [inversion H|].
  destruct n as [|n]; [reflexivity|]. cbn. f_equal. apply IH, le_S_n, H.
Qed.
Lemma firstn_app_le {A} (l r:list A) n : n <= length l -> firstn n (l ++ r) = firstn n l.
Proof. intros H. rewrite firstn_app, (proj2 (Nat.sub_0_le _ _) H). apply app_nil_r. Qed.
Lemma skipn_app_exact {A} (l r:list A) : skipn (length l) (l ++ r) = r.
Proof. rewrite skipn_app, skipn_all, Nat.sub_diag. reflexivity. Qed.
Lemma firstn_app_exact {A} (l r:list A) : firstn (length l) (l ++ r) = l.
Proof. rewrite firstn_app, firstn_all, Nat.sub_diag. apply app_nil_r. Qed.
Lemma firstn_incl {A} : forall n (l:list A), incl (firstn n l) l.
Proof. intros n l x H. rewrite <- (firstn_skipn n l). apply in_or_app. left. exact H. Qed.
Lemma skipn_incl {A} : forall n (l:list A), incl (skipn n l) l.
Proof. intros n l x H. rewrite <- (firstn_skipn n l). apply in_or_app. right. exact H. Qed.

Lemma app_self_nil {A} (p s:list A) : p ++ s = p -> s = [].
Proof. intros E. rewrite <- (app_nil_r p) in E at 2. exact (app_inv_head _ _ _ E). Qed.
Lemma in_app_cons_neq {A} (z y:A) l1 l2 : z <> y -> (In z (l1 ++ y :: l2) <-> In z (l1 ++ l2)).
Proof.
  intros N. split; intros H.
  - apply in_elt_inv in H as [E|H]; [destruct (N E)|exact H].
  - apply in_app_or in H as [H|H]; apply in_or_app; [left|right; right]; exact H.
Qed.

Lemma nodup_app {A} (a b:list A) : NoDup a -> NoDup b -> (forall x, In x a -> In x b -> False) -> NoDup (a ++ b).
Proof.
  induction a as [|x a IH]; simpl; intros Ha Hb Hd; [exact Hb|]. apply NoDup_cons_iff in Ha as [Nx Ha]. constructor.
  - intro Hin. apply in_app_or in Hin as [Hin|Hin]; [exact (Nx Hin)|]. apply (Hd x); [left; reflexivity|exact Hin].
  - apply IH; [exact Ha|exact Hb|]. intros y Hy1 Hy2. apply (Hd y); [right; exact Hy1|exact Hy2].
Qed.
Lemma nodup_map_filter {A B} (f:A -> B) (p:A -> bool) (l:list A) : NoDup (map f l) -> NoDup (map f (filter p l)).
Proof.
  induction l as [|x l IH]; simpl; intros H; [constructor|]. apply NoDup_cons_iff in H as [Nx Hl]. destruct (p x); simpl; [constructor|]; auto.
  intro Hin. apply Nx. apply in_map_iff in Hin as [y [E Hy]]. apply filter_In in Hy as [Hy _]. apply in_map_iff. exists y. auto.
Qed.

Lemma filter_filter {A} (f g:A -> bool) (l:list A) : filter f (filter g l) = filter (fun x => f x && g x) l.
Proof.
  induction l as [|x l IH]; [reflexivity|]. cbn [filter]. destruct (g x) eqn:G; cbn [filter].
  - destruct (f x); cbn; rewrite IH; reflexivity.
  - rewrite andb_false_r. exact IH.
Qed.

Lemma nth_map_const {A B} (l:list A) (d:B) i : nth i (map (fun _ => d) l) d = d.
Proof. revert i; induction l as [|a l IH]; intros [|i]; cbn; auto. Qed.
Lemma concat_map_nil {A B} (l:list A) : concat (map (fun _ => @nil B) l) = [].
Proof. induction l as [|a l IH]; cbn; auto. Qed.
Lemma nth_error_combine : forall {A B} (l:list A) (l':list B) i a b,
  nth_error l i = Some a -> nth_error l' i = Some b -> nth_error (combine l l') i = Some (a, b).
Proof.
  induction l as [|x l IH]; intros [|y l'] [|i] a b Ha Hb; try discriminate; cbn in *.
  - congruence.
  - apply IH; assumption.
Qed.

Lemma fold_left_inv {A B} (P:A -> Prop) (f:A -> B -> A) : (forall a b, P a -> P (f a b)) ->
  forall l a, P a -> P (fold_left f l a).
Proof. intros Hf. induction l as [|b l IH]; intros a H; [exact H|]. apply IH, Hf, H. Qed.
