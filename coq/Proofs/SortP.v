(* SortP.v — ORDER BY, LIMIT and OFFSET (Model/Sort.v, C09): every order of the model is a lexicographic
   product of single-key comparisons, hence a total preorder (tpc_row_cmp); Less is its strict part;
   sort_rows yields a sorted permutation; LIMIT and OFFSET are firstn and skipn; the boolean checks of a
   correspondence case mean what their names say (sort_case_ok_sound). *)
From Coq Require Import Lia Sorting.Sorted Sorting.Permutation.
From Zeno Require Import Base ListP BaseP Sort.

(* c is the three-way comparison of a total preorder.  Swapping the arguments flips the answer (so c a a = Eq
   and any two elements compare), Eq on the left can be replaced, Lt is transitive.  Replacement on the
   right and transitivity of "not Gt" follow (tpc_eq_r, tpc_le_trans); lexc, tpc_on and tpc_flip preserve the
   three fields as they stand. *)
Record tpc {A} (c:A->A->comparison) : Prop := {
  tpc_sym : forall a b, c b a = CompOpp (c a b);
  tpc_eq_l : forall a b d, c a b = Eq -> c a d = c b d;
  tpc_lt : forall a b d, c a b = Lt -> c b d = Lt -> c a d = Lt }.

Lemma tpc_refl {A} (c:A->A->comparison) : tpc c -> forall a, c a a = Eq.
Proof. intros H a. pose proof (tpc_sym c H a a) as S. destruct (c a a); simpl in S; congruence. Qed.

Lemma tpc_eq_r {A} (c:A->A->comparison) : tpc c -> forall a b d, c b d = Eq -> c a b = c a d.
Proof.
  intros H a b d E. rewrite (tpc_sym c H b a), (tpc_sym c H d a). f_equal.
  apply (tpc_eq_l c H). exact E.
Qed.

Lemma tpc_le_trans {A} (c:A->A->comparison) : tpc c ->
  forall a b d, c a b <> Gt -> c b d <> Gt -> c a d <> Gt.
Proof.
  intros H a b d Hab Hbd.
  destruct (c a b) eqn:Eab; [| |congruence].
  - rewrite (tpc_eq_l c H a b d Eab). exact Hbd.
  - destruct (c b d) eqn:Ebd; [| |congruence].
    + rewrite <- (tpc_eq_r c H a b d Ebd), Eab. discriminate.
    + rewrite (tpc_lt c H a b d Eab Ebd). discriminate.
Qed.

Lemma tpc_total {A} (c:A->A->comparison) : tpc c -> forall a b, c a b <> Gt \/ c b a <> Gt.
Proof. intros H a b. pose proof (tpc_sym c H a b) as S. destruct (c a b); simpl in S; [left|left|right]; congruence. Qed.

Definition lexc {A} (c1 c2:A->A->comparison) (a b:A) : comparison :=
  match c1 a b with Eq => c2 a b | x => x end.

(* the lexicographic product of total preorders is one: every level of every order below is an instance *)
Lemma tpc_lexc {A} (c1 c2:A->A->comparison) : tpc c1 -> tpc c2 -> tpc (lexc c1 c2).
Proof.
  intros H1 H2. constructor; unfold lexc.
  - intros a b. rewrite (tpc_sym c1 H1 a b). destruct (c1 a b); simpl; auto. apply (tpc_sym c2 H2).
  - intros a b d. destruct (c1 a b) eqn:E1; try discriminate. intros E2.
    rewrite (tpc_eq_l c1 H1 a b d E1). destruct (c1 b d); auto. apply (tpc_eq_l c2 H2); auto.
  - intros a b d. destruct (c1 a b) eqn:Eab; try discriminate.
    + rewrite (tpc_eq_l c1 H1 a b d Eab). destruct (c1 b d); try discriminate; auto. apply (tpc_lt c2 H2).
    + intros _. destruct (c1 b d) eqn:Ebd; try discriminate; intros _.
      * rewrite <- (tpc_eq_r c1 H1 a b d Ebd), Eab. reflexivity.
      * rewrite (tpc_lt c1 H1 a b d Eab Ebd). reflexivity.
Qed.

Lemma tpc_on {A B} (f:A->B) (c:B->B->comparison) : tpc c -> tpc (fun a b => c (f a) (f b)).
Proof. intros H. constructor; intros; [apply (tpc_sym c H)|apply (tpc_eq_l c H); auto|eapply (tpc_lt c H); eauto]. Qed.

Lemma tpc_flip {A} (c:A->A->comparison) : tpc c -> tpc (fun a b => c b a).
Proof.
  intros H. constructor; cbv beta.
  - intros a b. apply (tpc_sym c H).
  - intros a b d E. symmetry. apply (tpc_eq_r c H). exact E.
  - intros a b d E1 E2. apply (tpc_lt c H d b a); assumption.
Qed.

Lemma tpc_ext {A} (c c':A->A->comparison) : (forall a b, c a b = c' a b) -> tpc c' -> tpc c.
Proof.
  intros E H. constructor; intros *; rewrite !E; [apply (tpc_sym c' H)|apply (tpc_eq_l c' H)|apply (tpc_lt c' H)].
Qed.

Lemma tpc_Z : tpc Z.compare.
Proof.
  constructor.
  - intros a b. apply Z.compare_antisym.
  - intros a b d E. apply Z.compare_eq in E. subst. reflexivity.
  - intros a b d. apply Z.lt_trans.
Qed.

Lemma str_cmp_eq : forall a b, str_cmp a b = Eq -> a = b.
Proof.
  induction a as [|x a IH]; destruct b as [|y b]; simpl; try discriminate; auto.
  destruct (x ?= y) eqn:E; try discriminate. intros H. apply Z.compare_eq in E. f_equal; auto.
Qed.
Lemma str_cmp_refl : forall a, str_cmp a a = Eq.
Proof. induction a as [|x a IH]; simpl; auto. rewrite Z.compare_refl. auto. Qed.

Lemma tpc_str : tpc str_cmp.
Proof.
  constructor.
  - induction a as [|x a IH]; destruct b as [|y b]; simpl; auto.
    rewrite (Z.compare_antisym x y). destruct (x ?= y); simpl; auto.
  - intros a b d E. apply str_cmp_eq in E. subst. reflexivity.
  - induction a as [|x a IH]; destruct b as [|y b]; destruct d as [|z d]; simpl; try discriminate; auto.
    destruct (x ?= y) eqn:E1; try discriminate.
    + apply Z.compare_eq in E1. subst. destruct (y ?= z); try discriminate; auto. apply IH.
    + intros _. destruct (y ?= z) eqn:E2; try discriminate; intros _.
      * apply Z.compare_eq in E2. subst. rewrite E1. reflexivity.
      * rewrite (Zcompare_Lt_trans x y z E1 E2). reflexivity.
Qed.

(* core.compare's order on values is lexicographic too: first the kind, then the content read as a string *)
Definition vpay (v:val) : list Z :=
  match v with VNil => [] | VBool b => [if b then 1 else 0] | VInt z | VFlt z => [z] | VStr s => s end.

Lemma vcmp_lex : forall a b,
  vcmp a b = lexc (fun a b => vtag a ?= vtag b) (fun a b => str_cmp (vpay a) (vpay b)) a b.
Proof.
  intros [|x|x|x|x] [|y|y|y|y]; try reflexivity; unfold lexc; cbn.
  - destruct x, y; reflexivity.
  - destruct (x ?= y); reflexivity.
  - destruct (x ?= y); reflexivity.
Qed.

Lemma tpc_vcmp : tpc vcmp.
Proof.
  apply (tpc_ext _ _ vcmp_lex), tpc_lexc; [apply (tpc_on vtag _ tpc_Z)|apply (tpc_on vpay _ tpc_str)].
Qed.

Lemma vcmp_tag_lt : forall a b, vtag a < vtag b -> vcmp a b = Lt.
Proof. intros a b H. rewrite vcmp_lex. unfold lexc. unfold Z.lt in H. rewrite H. reflexivity. Qed.
Lemma vcmp_tag_gt : forall a b, vtag a > vtag b -> vcmp a b = Gt.
Proof. intros a b H. rewrite vcmp_lex. unfold lexc. unfold Z.gt in H. rewrite H. reflexivity. Qed.
Lemma vcmp_tag : forall a b, vcmp a b = Eq -> vtag a = vtag b.
Proof.
  intros a b. rewrite vcmp_lex. unfold lexc. destruct (vtag a ?= vtag b) eqn:E; try discriminate.
  intros _. apply Z.compare_eq. exact E.
Qed.

Lemma vcmp_eq : forall a b, vcmp a b = Eq -> a = b.
Proof.
  intros a b. destruct a, b; simpl; try discriminate; auto.
  - destruct b, b0; simpl; try discriminate; auto.
  - intros E. apply Z.compare_eq in E. congruence.
  - intros E. apply Z.compare_eq in E. congruence.
  - intros E. apply str_cmp_eq in E. congruence.
Qed.

Lemma tpc_key_cmp : forall k, tpc (key_cmp k).
Proof.
  intros [d|n d]; unfold key_cmp; destruct d.
  - apply (tpc_flip (fun a b => r_ts a ?= r_ts b)). apply (tpc_on r_ts _ tpc_Z).
  - apply (tpc_on r_ts _ tpc_Z).
  - apply (tpc_flip (fun a b => vcmp (row_get a n) (row_get b n))). apply (tpc_on (fun r => row_get r n) _ tpc_vcmp).
  - apply (tpc_on (fun r => row_get r n) _ tpc_vcmp).
Qed.

Lemma tpc_row_cmp : forall ks, tpc (row_cmp ks).
Proof.
  induction ks as [|k ks IH].
  - constructor; simpl; auto; discriminate.
  - change (row_cmp (k::ks)) with (lexc (key_cmp k) (row_cmp ks)). apply tpc_lexc; auto. apply tpc_key_cmp.
Qed.

Lemma cmp_vcmp : forall a b c, cmp a b = Some c -> vcmp a b = c.
Proof. intros a b c. destruct a, b; intros [= <-]; reflexivity. Qed.
Lemma cmp_def_sym : forall a b, cmp a b <> None -> cmp b a <> None.
Proof. intros a b. destruct a, b; simpl; congruence. Qed.

Definition is_lt (c:comparison) : bool := match c with Lt => true | _ => false end.

Lemma less_cons : forall k ks a b, comparable2 [k] a b = true ->
  less (k :: ks) a b = match key_cmp k a b with Lt => Some true | Gt => Some false | Eq => less ks a b end.
Proof.
  intros [d|n d] ks a b Hc; cbn [less key_cmp].
  - unfold Z.ltb. destruct d; rewrite (Z.compare_antisym (r_ts a) (r_ts b));
      destruct (r_ts a ?= r_ts b); reflexivity.
  - cbn in Hc. destruct (cmp (row_get a n) (row_get b n)) as [c|] eqn:E; [|discriminate].
    destruct d; [|rewrite E, (cmp_vcmp _ _ _ E); reflexivity].
    destruct (cmp (row_get b n) (row_get a n)) as [c'|] eqn:E'; [|elim (cmp_def_sym (row_get a n) (row_get b n)); congruence].
    rewrite (cmp_vcmp _ _ _ E'). reflexivity.
Qed.

Lemma less_is_lex : forall ks a b, comparable2 ks a b = true ->
  less ks a b = Some (is_lt (row_cmp ks a b)).
Proof.
  induction ks as [|k ks IH]; intros a b Hc; [reflexivity|].
  cbn [comparable2 forallb] in Hc. apply andb_prop in Hc. destruct Hc as [Hk Hr].
  rewrite less_cons by (cbn; rewrite Hk; reflexivity). cbn [row_cmp].
  destruct (key_cmp k a b); auto.
Qed.

Lemma comparable_in : forall ks rows a b, comparable ks rows = true -> In a rows -> In b rows ->
  comparable2 ks a b = true.
Proof.
  intros ks rows a b H Ha Hb. unfold comparable in H. rewrite forallb_forall in H.
  specialize (H a Ha). rewrite forallb_forall in H. exact (H b Hb).
Qed.

Lemma lex_le_trans : forall ks a b d, lex_le ks a b -> lex_le ks b d -> lex_le ks a d.
Proof. intros ks. apply (tpc_le_trans _ (tpc_row_cmp ks)). Qed.
Lemma lex_le_total : forall ks a b, lex_le ks a b \/ lex_le ks b a.
Proof. intros ks. apply (tpc_total _ (tpc_row_cmp ks)). Qed.
Lemma lex_le_refl : forall ks a, lex_le ks a a.
Proof. intros ks a. unfold lex_le. rewrite (tpc_refl _ (tpc_row_cmp ks)). congruence. Qed.
Lemma lex_leb_spec : forall ks a b, lex_leb ks a b = true <-> lex_le ks a b.
Proof. intros. unfold lex_leb, lex_le. destruct (row_cmp ks a b); split; congruence. Qed.

Lemma sorted_chk_sorted : forall ks l, sorted_chk ks l = true <-> Sorted (lex_le ks) l.
Proof.
  intros ks. induction l as [|a r IH]; [split; auto|].
  cbn [sorted_chk]. destruct r as [|b r'].
  - split; auto.
  - rewrite andb_true_iff, IH, lex_leb_spec. split.
    + intros [H1 H2]. constructor; auto.
    + intros Hs. apply Sorted_inv in Hs as [Hs Hh]. apply HdRel_inv in Hh. auto.
Qed.

Lemma sorted_chk_strongly : forall ks l, sorted_chk ks l = true <-> StronglySorted (lex_le ks) l.
Proof.
  intros ks l. rewrite sorted_chk_sorted. split.
  - apply Sorted_StronglySorted. intros a b d. apply lex_le_trans.
  - apply StronglySorted_Sorted.
Qed.

Lemma val_eqb_eq : forall a b, val_eqb a b = true <-> a = b.
Proof.
  intros a b. destruct a, b; simpl; try (split; congruence).
  - rewrite Bool.eqb_true_iff. split; congruence.
  - rewrite Z.eqb_eq. split; congruence.
  - rewrite Z.eqb_eq. split; congruence.
  - split.
    + destruct (str_cmp s s0) eqn:E; try discriminate. intros _. apply str_cmp_eq in E. congruence.
    + intros [= ->]. rewrite str_cmp_refl. reflexivity.
Qed.

Lemma row_eqb_eq : forall a b, row_eqb a b = true <-> a = b.
Proof.
  intros [t v k] [t' v' k']. unfold row_eqb. cbn [r_ts r_vals r_key].
  rewrite 2 andb_true_iff, Z.eqb_eq, (list_eqb_eq _ (pair_eqb_eq _ _ Z.eqb_eq Z.eqb_eq)),
    (list_eqb_eq _ (pair_eqb_eq _ _ Z.eqb_eq val_eqb_eq)).
  split; [intros [[-> ->] ->]; auto|intros [= -> -> ->]; auto].
Qed.

Definition frow_eq_dec : forall a b:frow, {a = b} + {a <> b}.
Proof.
  intros a b. destruct (row_eqb a b) eqn:E.
  - left. apply row_eqb_eq. exact E.
  - right. intros H. apply row_eqb_eq in H. congruence.
Defined.

Lemma count_row_occ : forall x l, count_row x l = count_occ frow_eq_dec l x.
Proof.
  intros x. induction l as [|y l IH]; [reflexivity|].
  unfold count_row in *. cbn [filter count_occ].
  destruct (frow_eq_dec y x) as [->|N].
  - assert (row_eqb x x = true) as -> by (apply row_eqb_eq; auto). simpl. f_equal. exact IH.
  - destruct (row_eqb x y) eqn:E; [apply row_eqb_eq in E; congruence|exact IH].
Qed.

Lemma perm_chk_perm : forall l1 l2, perm_chk l1 l2 = true <-> Permutation l1 l2.
Proof.
  intros l1 l2. unfold perm_chk. rewrite (Permutation_count_occ frow_eq_dec). rewrite forallb_forall. split.
  - intros H x. destruct (in_dec frow_eq_dec x (l1 ++ l2)) as [I|N].
    + specialize (H x I). apply Nat.eqb_eq in H. rewrite <- 2 count_row_occ. exact H.
    + assert (~ In x l1 /\ ~ In x l2) as [N1 N2] by (split; intros ?; apply N; apply in_or_app; auto).
      apply (count_occ_not_In frow_eq_dec) in N1. apply (count_occ_not_In frow_eq_dec) in N2. congruence.
  - intros H x _. apply Nat.eqb_eq. rewrite 2 count_row_occ. apply H.
Qed.

Lemma rows_eqb_eq : forall a b, rows_eqb a b = true <-> a = b.
Proof. apply list_eqb_eq. apply row_eqb_eq. Qed.

Lemma insert_perm : forall ks x l, Permutation (x :: l) (insert_sorted ks x l).
Proof.
  intros ks x. induction l as [|y l IH]; simpl; auto.
  destruct (lessb ks y x); auto. eapply perm_trans; [apply perm_swap|]. constructor. exact IH.
Qed.

Lemma sort_rows_perm : forall ks l, Permutation l (sort_rows ks l).
Proof.
  intros ks. induction l as [|x l IH]; simpl; auto.
  eapply perm_trans; [|apply insert_perm]. constructor. exact IH.
Qed.

Lemma lessb_lt : forall ks a b, comparable2 ks a b = true -> lessb ks a b = is_lt (row_cmp ks a b).
Proof. intros ks a b H. unfold lessb. rewrite (less_is_lex ks a b H). destruct (is_lt _); reflexivity. Qed.

(* not less means at least: what the else-branch of the insertion knows *)
Lemma not_lt_ge : forall ks a b, is_lt (row_cmp ks a b) = false -> lex_le ks b a.
Proof.
  intros ks a b H. unfold lex_le. rewrite (tpc_sym _ (tpc_row_cmp ks) a b).
  destruct (row_cmp ks a b); simpl; discriminate.
Qed.

Lemma insert_hd : forall ks a x l, lex_le ks a x -> HdRel (lex_le ks) a l -> HdRel (lex_le ks) a (insert_sorted ks x l).
Proof.
  intros ks a x [|y l] Hax H; cbn [insert_sorted]; [constructor; exact Hax|].
  destruct (lessb ks y x); constructor; [inversion H; assumption|exact Hax].
Qed.

Lemma insert_sorted_ok : forall ks x l,
  (forall y, In y l -> comparable2 ks y x = true) ->
  Sorted (lex_le ks) l -> Sorted (lex_le ks) (insert_sorted ks x l).
Proof.
  intros ks x. induction l as [|y l IH]; intros Hc Hs; cbn [insert_sorted].
  - repeat constructor.
  - rewrite (lessb_lt ks y x) by (apply Hc; left; reflexivity).
    destruct (Sorted_inv Hs) as [Hs' Hhd].
    destruct (is_lt (row_cmp ks y x)) eqn:E.
    + constructor; [apply IH; [intros z Hz; apply Hc; right; exact Hz|exact Hs']|].
      apply insert_hd; [|exact Hhd]. unfold lex_le. destruct (row_cmp ks y x); discriminate.
    + constructor; [exact Hs|]. constructor. apply not_lt_ge. exact E.
Qed.

Lemma sort_rows_sorted_gen : forall ks l,
  (forall a b, In a l -> In b l -> comparable2 ks a b = true) ->
  Sorted (lex_le ks) (sort_rows ks l).
Proof.
  intros ks. induction l as [|x l IH]; intros Hc; simpl; [constructor|].
  apply insert_sorted_ok.
  - intros y Hy. apply (Permutation_in _ (Permutation_sym (sort_rows_perm ks l))) in Hy.
    apply Hc; [right|left]; auto.
  - apply IH. intros a b Ha Hb. apply Hc; right; auto.
Qed.

Lemma sort_rows_sorted : forall ks l, comparable ks l = true -> StronglySorted (lex_le ks) (sort_rows ks l).
Proof.
  intros ks l H. apply Sorted_StronglySorted; [exact (lex_le_trans ks)|].
  apply sort_rows_sorted_gen. intros a b. apply comparable_in. exact H.
Qed.

Lemma offset_from_skipn : forall l idx off, offset_from idx off l = skipn (Z.to_nat (off - idx)) l.
Proof.
  induction l as [|x l IH]; intros idx off; cbn [offset_from].
  - rewrite skipn_nil. reflexivity.
  - destruct (Z.leb_spec off idx).
    + rewrite IH. replace (Z.to_nat (off - idx)) with O by lia. replace (Z.to_nat (off - (idx+1))) with O by lia. reflexivity.
    + rewrite IH. replace (Z.to_nat (off - idx)) with (S (Z.to_nat (off - (idx+1)))) by lia. reflexivity.
Qed.
Lemma limit_from_firstn : forall l idx lim, limit_from idx lim l = firstn (Z.to_nat (lim - idx)) l.
Proof.
  induction l as [|x l IH]; intros idx lim; cbn [limit_from].
  - rewrite firstn_nil. reflexivity.
  - destruct (Z.ltb_spec idx lim).
    + rewrite IH. replace (Z.to_nat (lim - idx)) with (S (Z.to_nat (lim - (idx+1)))) by lia. reflexivity.
    + replace (Z.to_nat (lim - idx)) with O by lia. reflexivity.
Qed.

Lemma limit_offset : forall (n m:nat) rows,
  limit_rows (Z.of_nat n) (offset_rows (Z.of_nat m) rows) = firstn n (skipn m rows).
Proof.
  intros. unfold limit_rows, offset_rows. rewrite limit_from_firstn, offset_from_skipn.
  rewrite 2 Z.sub_0_r, 2 Nat2Z.id. reflexivity.
Qed.

Lemma pipeline_spec : forall ks off lim rows, 0 <= off -> (forall n, lim = Some n -> 0 <= n) ->
  order_limit_offset ks off lim rows =
  slice_spec off lim (match ks with [] => rows | _ => sort_rows ks rows end).
Proof.
  intros ks off lim rows Ho Hl. unfold order_limit_offset, slice_spec.
  set (l1 := match ks with [] => rows | _ => sort_rows ks rows end).
  assert (E2 : (if 0 <? off then offset_rows off l1 else l1) = skipz (Z.max 0 off) l1).
  { unfold offset_rows. rewrite skipz_skipn, offset_from_skipn, Z.sub_0_r. rewrite Z.max_r by lia.
    destruct (Z.ltb_spec 0 off); auto. replace off with 0 by lia. reflexivity. }
  rewrite E2. destruct lim as [n|]; auto.
  unfold limit_rows. rewrite firstz_firstn, limit_from_firstn, Z.sub_0_r. rewrite (Z.max_r 0 n); [reflexivity|]. apply Hl. reflexivity.
Qed.

Lemma never_more : forall (n m:nat) rows,
  (length (limit_rows (Z.of_nat n) (offset_rows (Z.of_nat m) rows)) <= n)%nat /\
  incl (limit_rows (Z.of_nat n) (offset_rows (Z.of_nat m) rows)) rows.
Proof.
  intros. rewrite limit_offset. split.
  - rewrite firstn_length. lia.
  - intros x H. apply firstn_incl in H. apply skipn_incl in H. exact H.
Qed.

Lemma sort_case_ok_sound : forall c, sort_case_ok c = true ->
  StronglySorted (lex_le (sc_keys c)) (sc_sorted c) /\
  Permutation (sc_in c) (sc_sorted c) /\
  (sc_keys c = [] -> sc_sorted c = sc_in c) /\
  sc_out c = slice_spec (sc_off c) (sc_lim c) (sc_sorted c).
Proof.
  intros c H. unfold sort_case_ok in H. apply andb_prop in H as [H H4]. apply andb_prop in H as [H H3]. apply andb_prop in H as [H1 H2].
  split; [apply sorted_chk_strongly; auto|]. split; [apply perm_chk_perm; auto|]. split.
  - intros E. rewrite E in H3. apply rows_eqb_eq in H3. auto.
  - apply rows_eqb_eq. auto.
Qed.
