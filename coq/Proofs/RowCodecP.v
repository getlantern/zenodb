(* RowCodecP.v — reading back a row written by doWrite gives the row, for every key shorter than 2^16 bytes, fewer
   than 2^16 columns, columns shorter than 2^64 bytes and a rowLength that fits 64 bits; beyond the first bound the
   format cannot hold the key (the witness is a key of 65536 bytes: the file is unreadable) — the guard the code
   lacked before /repo 7f0b5d0. *)
From Coq Require Import Lia.
From Zeno Require Import Base ListP BaseP RowCodec CorrRow.

Lemma pow256_pos k : 0 < 256 ^ Z.of_nat k.
Proof. apply Z.pow_pos_nonneg; lia. Qed.

Lemma dec_enc n : forall x r acc, 0 <= x -> dec_be n (enc_be n x ++ r) acc = Some (acc * 256 ^ Z.of_nat n + x mod 256 ^ Z.of_nat n, r).
Proof.
  induction n as [|k IH]; intros x r acc Hx.
  - simpl. rewrite Z.mod_1_r, Z.mul_1_r, Z.add_0_r. reflexivity.
  - cbn [enc_be dec_be app]. rewrite IH by exact Hx. apply f_equal, f_equal2; [|reflexivity].
    rewrite Nat2Z.inj_succ, Z.pow_succ_r by lia.
    pose proof (pow256_pos k) as P.
    rewrite (Z.mul_comm 256), (Z.rem_mul_r x (256 ^ Z.of_nat k) 256) by lia. ring.
Qed.

Lemma dec_enc_small n x r : 0 <= x < 256 ^ Z.of_nat n -> dec_be n (enc_be n x ++ r) 0 = Some (x, r).
Proof. intros H. rewrite dec_enc by lia. rewrite Z.mod_small by exact H. f_equal. Qed.

Lemma zlen_nonneg {A} (l:list A) : 0 <= zlen l.
Proof. unfold zlen. lia. Qed.
Lemma to_nat_zlen {A} (l:list A) : Z.to_nat (zlen l) = length l.
Proof. apply Nat2Z.id. Qed.
Lemma zlen_app {A} (a b:list A) : zlen (a ++ b) = zlen a + zlen b.
Proof. unfold zlen. rewrite app_length. lia. Qed.
Lemma firstz_app_exact {A} (a b:list A) : firstz (zlen a) (a ++ b) = a.
Proof. rewrite firstz_firstn. unfold zlen. rewrite Nat2Z.id. apply firstn_app_exact. Qed.
Lemma skipz_app_exact {A} (a b:list A) : skipz (zlen a) (a ++ b) = b.
Proof. rewrite skipz_skipn. unfold zlen. rewrite Nat2Z.id. apply skipn_app_exact. Qed.
Lemma zlen_cons {A} (x:A) l : zlen (x :: l) = 1 + zlen l.
Proof. unfold zlen. cbn [length]. lia. Qed.
Lemma zlen_enc n x : zlen (enc_be n x) = Z.of_nat n.
Proof. unfold zlen. f_equal. induction n; simpl; auto. Qed.

Lemma zlen_app_ltb {A} (a b:list A) : zlen (a ++ b) <? zlen a = false.
Proof. apply Z.ltb_ge. rewrite zlen_app. pose proof (zlen_nonneg b). lia. Qed.

Lemma read_lengths_enc (cols:list (list Z)) r :
  Forall (fun c => zlen c < 256 ^ 8) cols ->
  read_lengths (length cols) (flat_map (fun c => enc_be 8 (zlen c)) cols ++ r) = Some (map zlen cols, r).
Proof.
  induction cols as [|c cols IH]; intros H; [reflexivity|]. inversion H; subst.
  cbn [length read_lengths flat_map map]. rewrite <- app_assoc.
  rewrite (dec_enc_small 8) by (split; [apply zlen_nonneg|exact H2]). rewrite IH by assumption. reflexivity.
Qed.

Lemma read_cols_concat (cols:list (list Z)) r : read_cols (map zlen cols) (concat cols ++ r) = Some (cols, r).
Proof.
  induction cols as [|c cols IH]; [reflexivity|]. cbn [map read_cols concat]. rewrite <- app_assoc.
  rewrite zlen_app_ltb, skipz_app_exact, firstz_app_exact, IH. reflexivity.
Qed.

Lemma dec_be_length n : forall l acc v r, dec_be n l acc = Some (v, r) -> zlen l = Z.of_nat n + zlen r.
Proof.
  induction n as [|k IH]; intros l acc v r H; cbn [dec_be] in H.
  - injection H as _ ->. lia.
  - destruct l as [|b l]; [discriminate|]. apply IH in H. unfold zlen in *. cbn [length]. lia.
Qed.
Lemma read_lengths_short n : forall l, zlen l < 8 * Z.of_nat n -> read_lengths n l = None.
Proof.
  induction n as [|k IH]; intros l H; [pose proof (zlen_nonneg l); lia|]. cbn [read_lengths].
  destruct (dec_be 8 l 0) as [[v r]|] eqn:E; [|reflexivity]. apply dec_be_length in E. rewrite IH by lia. reflexivity.
Qed.

(* a row as doWrite lays it out after the rowLength, and iterate's reading of it once cut out of the file: parse_row
   repeats the text of RowCodec.decode_row from its second dec_be on, and the reflexivity that ends decode_row_frame
   is the check that the two are in step *)
Definition row_body (key:list Z) (cols:list (list Z)) : list Z :=
  enc_be 2 (zlen key) ++ key ++ enc_be 2 (zlen cols) ++ flat_map (fun c => enc_be 8 (zlen c)) cols ++ concat cols.
Definition parse_row (row after:list Z) : option (list Z * list (list Z) * list Z) :=
  match dec_be 2 row 0 with
  | None => None
  | Some (keyLength, r1) =>
      if zlen r1 <? keyLength then None else
      match dec_be 2 (skipz keyLength r1) 0 with
      | None => None
      | Some (ncols, r2) =>
          match read_lengths (Z.to_nat ncols) r2 with
          | None => None
          | Some (lens, r3) => match read_cols lens r3 with Some (cols, _) => Some (firstz keyLength r1, cols, after) | None => None end
          end
      end
  end.

Lemma cols_len (cols:list (list Z)) :
  fold_right (fun c acc => 8 + zlen c + acc) 0 cols = zlen (flat_map (fun c => enc_be 8 (zlen c)) cols) + zlen (concat cols).
Proof. induction cols as [|c cols IH]; [reflexivity|]. cbn [flat_map concat fold_right]. rewrite !zlen_app, zlen_enc. lia. Qed.

Lemma zlen_row_body key cols : zlen (row_body key cols) = 2 + zlen key + 2 + fold_right (fun c acc => 8 + zlen c + acc) 0 cols.
Proof. unfold row_body. rewrite !zlen_app, !zlen_enc, cols_len. lia. Qed.

Lemma encode_row_body key cols : encode_row key cols = enc_be 8 (8 + zlen (row_body key cols)) ++ row_body key cols.
Proof. unfold encode_row. rewrite zlen_row_body, !Z.add_assoc. reflexivity. Qed.

(* the framing: the rowLength (when it fits 64 bits) cuts the file exactly after the row *)
Lemma decode_row_frame body after : 8 + zlen body < 256 ^ 8 ->
  decode_row (enc_be 8 (8 + zlen body) ++ body ++ after) = parse_row body after.
Proof.
  intros H. unfold decode_row. rewrite (dec_enc_small 8) by (pose proof (zlen_nonneg body); lia).
  rewrite Z.add_simpl_l, zlen_app_ltb, firstz_app_exact, skipz_app_exact. reflexivity.
Qed.

Definition fits (key:list Z) (cols:list (list Z)) : Prop :=
  zlen key < 2 ^ 16 /\ zlen cols < 2 ^ 16 /\ Forall (fun c => zlen c < 256 ^ 8) cols
  /\ 8 + 2 + zlen key + 2 + fold_right (fun c acc => 8 + zlen c + acc) 0 cols < 256 ^ 8.

(* what fileStore.iterate reads is what doWrite wrote, and it leaves the rest of the file where the next row starts *)
Theorem row_roundtrip key cols after : fits key cols -> decode_row (encode_row key cols ++ after) = Some (key, cols, after).
Proof.
  intros [Hk [Hc [Hcs Hr]]]. rewrite encode_row_body, <- app_assoc, decode_row_frame by (rewrite zlen_row_body; lia).
  unfold parse_row, row_body.
  rewrite (dec_enc_small 2) by (split; [apply zlen_nonneg|exact Hk]).
  rewrite zlen_app_ltb, firstz_app_exact, skipz_app_exact.
  rewrite (dec_enc_small 2) by (split; [apply zlen_nonneg|exact Hc]).
  rewrite to_nat_zlen, read_lengths_enc by exact Hcs.
  rewrite <- (app_nil_r (concat cols)), read_cols_concat. reflexivity.
Qed.

(* without the bound on the key the format cannot hold the row: a key of 2^16 bytes is written with length 0, so its
   first two bytes are read as the number of columns; here that is 65535, more lengths than the row has bytes *)
Lemma wrapped_key_unreadable tl : zlen tl = 65534 -> decode_row (encode_row (255 :: 255 :: tl) []) = None.
Proof.
  intros Et. assert (zlen (255 :: 255 :: tl) = 2 ^ 16) as Ek by (rewrite !zlen_cons, Et; reflexivity).
  rewrite <- (app_nil_r (encode_row _ _)), encode_row_body, <- app_assoc.
  rewrite decode_row_frame by (rewrite zlen_row_body, Ek; cbn [fold_right]; lia).
  unfold parse_row, row_body. rewrite dec_enc, Ek by lia.
  change (0 * _ + _) with 0. (* the keyLength read back: 2^16 mod 256^2 *)
  rewrite (ltb_false _ 0) by apply zlen_nonneg.
  (* with no byte taken for the key, dec_be 2 reads 255, 255 as the number of columns *)
  cbn [app skipz Z.ltb Z.compare dec_be]. rewrite read_lengths_short; [reflexivity|].
  rewrite zlen_app, Et, !zlen_app, zlen_enc. unfold zlen. cbn [flat_map concat length]. lia.
Qed.
Theorem long_key_refuted : exists key cols, zlen key = 2 ^ 16 /\ decode_row (encode_row key cols) = None.
Proof.
  assert (zlen (repeat 255 (Z.to_nat 65534)) = 65534) as Et by (unfold zlen; rewrite repeat_length; apply Z2Nat.id; discriminate).
  exists (255 :: 255 :: repeat 255 (Z.to_nat 65534)), []. split; [|exact (wrapped_key_unreadable _ Et)].
  rewrite !zlen_cons, Et. reflexivity.
Qed.

Example row_roundtrip_nonvacuous : fits [1; 2; 3] [[7; 8]; []; [9]] /\ decode_row (encode_row [1; 2; 3] [[7; 8]; []; [9]] ++ [42]) = Some ([1; 2; 3], [[7; 8]; []; [9]], [42]).
Proof.
  split; [|vm_compute; reflexivity]. unfold fits.
  split; [vm_compute; reflexivity|]. split; [vm_compute; reflexivity|]. split; [|vm_compute; reflexivity].
  constructor; [vm_compute; reflexivity|]. constructor; [vm_compute; reflexivity|]. constructor; [vm_compute; reflexivity|constructor].
Qed.

(* a whole file: the rows written one after the other are the rows read, in order, to the end of the file *)
Definition encode_rows (rows:list (list Z * list (list Z))) : list Z := flat_map (fun r => encode_row (fst r) (snd r)) rows.

Lemma encode_row_cons key cols : exists b rest, encode_row key cols = b :: rest.
Proof. unfold encode_row. eexists. eexists. reflexivity. Qed.

Lemma decode_all_row f key cols file : fits key cols ->
  decode_all (S f) (encode_row key cols ++ file) = option_map (cons (key, cols)) (decode_all f file).
Proof.
  intros H. destruct (encode_row_cons key cols) as [b [rest E]].
  destruct (encode_row key cols ++ file) as [|z l] eqn:E0; [rewrite E in E0; discriminate E0|].
  cbn [decode_all]. rewrite <- E0, row_roundtrip by exact H. reflexivity.
Qed.

Lemma decode_all_rows : forall rows fuel, (length rows < fuel)%nat -> Forall (fun r => fits (fst r) (snd r)) rows ->
  decode_all fuel (encode_rows rows) = Some rows.
Proof.
  induction rows as [|[key cols] rows IH]; intros fuel Hf Hfit; (destruct fuel as [|f]; [inversion Hf|]).
  - reflexivity.
  - change (encode_rows ((key, cols) :: rows)) with (encode_row key cols ++ encode_rows rows).
    rewrite decode_all_row, IH;
      [reflexivity|apply Nat.succ_lt_mono; exact Hf|exact (Forall_inv_tail Hfit)|exact (Forall_inv Hfit)].
Qed.

Lemma encode_rows_length rows : (length rows <= length (encode_rows rows))%nat.
Proof.
  induction rows as [|[key cols] rows IH]; [simpl; lia|]. cbn [encode_rows flat_map fst snd]. rewrite app_length.
  destruct (encode_row_cons key cols) as [b [rest E]]. rewrite E. fold (encode_rows rows). simpl. lia.
Qed.

(* with the fuel the correspondence stage uses *)
Theorem file_roundtrip rows : Forall (fun r => fits (fst r) (snd r)) rows ->
  decode_all (S (length (encode_rows rows))) (encode_rows rows) = Some rows.
Proof. intros H. apply decode_all_rows; [pose proof (encode_rows_length rows); lia|exact H]. Qed.
