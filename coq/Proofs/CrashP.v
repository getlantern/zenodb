(* CrashP.v — proofs about Model/Crash.v: whatever kills, reopenings and flushes happen, the table of the fixed code
   (atomic = true) always holds a prefix of the acknowledged inserts, each exactly once, and after catching up holds all
   of them; the code as shipped (atomic = false) does not, because of array inserts split around a flush. *)
From Coq Require Import List Arith Bool Lia.
From Zeno Require Import ListP Crash.
Import ListNotations.

(* [cbn] leaves these folded: the lemmas below speak of them as they stand in the model *)
#[local] Arguments expected_upto : simpl never.
#[local] Arguments Nat.ltb : simpl never.

Definition sub_of (off:nat) (e:centry) : list (nat * nat) :=
  if c_pass e then map (fun i => (off, i)) (seq 0 (S (c_k e))) else [].

Lemma expand_from_cons : forall e t b, expand_from (e :: t) b = sub_of b e ++ expand_from t (S b).
Proof. reflexivity. Qed.

Lemma expand_from_app : forall l1 l2 b,
  expand_from (l1 ++ l2) b = expand_from l1 b ++ expand_from l2 (length l1 + b).
Proof.
  induction l1 as [|e t IH]; intros l2 b.
  - reflexivity.
  - rewrite <- app_comm_cons. rewrite !expand_from_cons. rewrite IH.
    rewrite app_assoc. cbn [length]. rewrite Nat.add_succ_r. reflexivity.
Qed.

Lemma expected_upto_S : forall wal n, n < length wal ->
  expected_upto wal (S n) = expected_upto wal n ++ sub_of (S n) (nth n wal dcentry).
Proof.
  intros wal n Hn. unfold expected_upto.
  rewrite (firstn_S_nth _ _ dcentry), expand_from_app by exact Hn.
  rewrite firstn_length_le, Nat.add_1_r by apply Nat.lt_le_incl, Hn.
  rewrite expand_from_cons. f_equal. apply app_nil_r.
Qed.

Lemma expected_upto_app : forall wal l n, n <= length wal ->
  expected_upto (wal ++ l) n = expected_upto wal n.
Proof.
  intros wal l n Hn. unfold expected_upto.
  rewrite firstn_app_le by exact Hn. reflexivity.
Qed.

Lemma expected_upto_all : forall wal, expected_upto wal (length wal) = expected wal.
Proof. intros wal. unfold expected_upto, expected. rewrite firstn_all. reflexivity. Qed.

Definition item_of (off:nat) (e:centry) : pitem :=
  if c_pass e then PIns off (seq 0 (S (c_k e))) else PSkip off.

Lemma items_true_item : forall off e, items true off e = [item_of off e].
Proof. intros off e. unfold items, item_of. destruct (c_pass e); reflexivity. Qed.

(* the items of the entries a+1 .. b *)
Definition pend_of (wal:list centry) (a b:nat) : list pitem :=
  map (fun i => item_of (S i) (nth i wal dcentry)) (seq a (b - a)).

#[local] Arguments pend_of : simpl never.

Lemma pend_of_nil : forall wal a, pend_of wal a a = [].
Proof. intros wal a. unfold pend_of. rewrite Nat.sub_diag. reflexivity. Qed.

Lemma pend_of_snoc : forall wal a b, a <= b ->
  pend_of wal a (S b) = pend_of wal a b ++ [item_of (S b) (nth b wal dcentry)].
Proof.
  intros wal a b Hab. unfold pend_of.
  rewrite Nat.sub_succ_l, seq_S, map_app by exact Hab.
  rewrite Nat.add_comm, Nat.sub_add by exact Hab. reflexivity.
Qed.

Lemma pend_of_head : forall wal a b, a < b ->
  pend_of wal a b = item_of (S a) (nth a wal dcentry) :: pend_of wal (S a) b.
Proof.
  intros wal a b Hab. unfold pend_of.
  replace (b - a) with (S (b - S a)) by lia. reflexivity.
Qed.

Lemma pend_of_app_wal : forall wal l a b, b <= length wal ->
  pend_of (wal ++ l) a b = pend_of wal a b.
Proof.
  intros wal l a b Hb. apply map_ext_in. intros i Hi. apply in_seq in Hi.
  rewrite app_nth1 by lia. reflexivity.
Qed.

Lemma pend_of_cons : forall wal a b it t, a <= b -> it :: t = pend_of wal a b ->
  a < b /\ it = item_of (S a) (nth a wal dcentry) /\ t = pend_of wal (S a) b.
Proof.
  intros wal a b it t Hab E. destruct (Nat.eq_dec a b) as [->|Hne]; [rewrite pend_of_nil in E; discriminate E|].
  rewrite pend_of_head in E by lia. injection E as -> ->. repeat split. lia.
Qed.

Lemma pend_of_nil_inv : forall wal a b, a <= b -> pend_of wal a b = [] -> a = b.
Proof.
  intros wal a b Hab E. destruct (Nat.eq_dec a b) as [Heq|Hne]; [exact Heq|].
  rewrite pend_of_head in E by lia. discriminate E.
Qed.

(* P = cP s is what a reopening would resume from: the file holds the entries up to P; while the process is up the
   memstore holds those from P to its own offset, and the items between that offset and the reader's are pending.
   While offsetChanged is clear the memstore's offset is P itself: a flush that then finds nothing to write leaves the
   directory as it is. *)
Definition cP (s:cstate) : nat := Nat.max (c_foff s) (c_ofile s).
Definition cinv (s:cstate) : Prop :=
  cP s <= length (c_wal s) /\
  c_file s = expected_upto (c_wal s) (cP s) /\
  (c_up s = true ->
     (cP s <= c_moff s <= c_rpos s /\ c_rpos s <= length (c_wal s)) /\
     (c_changed s = false -> c_moff s = cP s) /\
     ccontent s = expected_upto (c_wal s) (c_moff s) /\
     c_pend s = pend_of (c_wal s) (c_moff s) (c_rpos s)).

(* [cbn] unfolds the invariant on a state that is written out, and only there: unfolded around a step that is not
   yet computed it would hold two dozen copies of the step *)
#[local] Arguments cP !s /.
#[local] Arguments ccontent !s /.
#[local] Arguments cinv !s /.

Lemma cinv_init : cinv cinit.
Proof. cbn. repeat split; lia. Qed.

Lemma apply_item_of : forall a s off e t, c_up s = true -> c_pend s = item_of off e :: t ->
  cstep a s Apply =
  {| c_wal := c_wal s; c_file := c_file s; c_foff := c_foff s; c_ofile := c_ofile s; c_up := true; c_rpos := c_rpos s;
     c_pend := t; c_mem := c_mem s ++ sub_of off e; c_moff := off; c_changed := true |}.
Proof.
  intros a s off e t U P. cbn [cstep]. rewrite U, P. unfold item_of, sub_of.
  destruct (c_pass e); [|rewrite app_nil_r]; reflexivity.
Qed.

Lemma cinv_step : forall s o, cinv s -> cinv (cstep true s o).
Proof.
  intros [wal file foff ofile up rpos pend mem moff changed] o H. pose proof H as (Hn & Hf & Hu). cbn in Hn, Hf, Hu.
  destruct o as [p k | | | | | ].
  - (* Ack: nothing looks beyond the old end of the WAL *)
    cbn. rewrite last_length, expected_upto_app by exact Hn. split; [apply le_S, Hn|]. split; [exact Hf|].
    intros U. destruct (Hu U) as (N & F & C & Q). clear Hu.
    rewrite expected_upto_app, pend_of_app_wal by lia. split; [lia|]. repeat split; assumption.
  - (* Read: one more item is pending *)
    destruct up; [|exact H]. cbn. destruct (Nat.ltb_spec rpos (length wal)) as [L|_]; [|exact H].
    destruct (Hu eq_refl) as (N & F & C & Q). clear Hu.
    cbn. rewrite items_true_item, pend_of_snoc, <- Q by apply N. repeat split; try assumption; lia.
  - (* Apply: the head item is that of entry moff+1, and expected_upto grows by its sub-inserts *)
    destruct up; [|exact H]. destruct (Hu eq_refl) as (N & F & C & Q). clear Hu.
    destruct pend as [|it t]; [exact H|]. apply pend_of_cons in Q as (L & -> & ->); [|apply N].
    rewrite (apply_item_of true _ (S moff) (nth moff wal dcentry) (pend_of wal (S moff) rpos)) by reflexivity. cbn.
    split; [exact Hn|]. split; [exact Hf|]. intros _.
    split; [lia|]. split; [discriminate|]. split; [|reflexivity].
    rewrite expected_upto_S, <- C, app_assoc by lia. reflexivity.
  - (* Flush: in each of its three cases what a reopening would resume from becomes moff *)
    destruct up; [|exact H]. destruct (Hu eq_refl) as (((N1 & N2) & N3) & F & C & Q). clear Hu.
    destruct mem as [|m mem']; [rewrite app_nil_r in C; destruct changed|]; cbn; rewrite ?app_nil_r.
    + rewrite (Nat.max_r foff moff) by lia. repeat split; try assumption; lia.
    + repeat split; assumption.
    + rewrite (Nat.max_l moff ofile) by lia. repeat split; try assumption; lia.
  - (* Crash: the directory is untouched and the process is down *)
    cbn. split; [exact Hn|]. split; [exact Hf|]. discriminate.
  - (* Open: the process starts from the disk *)
    destruct up; [exact H|]. clear Hu. cbn. rewrite app_nil_r, pend_of_nil. repeat split; try assumption; lia.
Qed.

Lemma crun_nil : forall a s, crun a s [] = s.
Proof. reflexivity. Qed.

Lemma crun_cons : forall a s o ops, crun a s (o :: ops) = crun a (cstep a s o) ops.
Proof. reflexivity. Qed.

Lemma cinv_run : forall ops s, cinv s -> cinv (crun true s ops).
Proof. intros ops. apply fold_left_inv. intros s o. apply cinv_step. Qed.

Lemma cinv_reach : forall ops, cinv (crun true cinit ops).
Proof. intros ops. apply cinv_run. apply cinv_init. Qed.

(* at every reachable state of the fixed code, while the process is up, the table reflects exactly the entries up to
   the memstore offset *)
Theorem content_is_prefix : forall ops, let s := crun true cinit ops in
  c_up s = true -> ccontent s = expected_upto (c_wal s) (c_moff s) /\ c_moff s <= length (c_wal s).
Proof.
  intros ops s Hup. subst s. destruct (cinv_reach ops) as (_ & _ & Hu). destruct (Hu Hup) as (N & _ & C & _).
  split; [exact C | lia].
Qed.

(* what is on disk is always a prefix too *)
Theorem disk_is_prefix : forall ops, let s := crun true cinit ops in
  c_file s = expected_upto (c_wal s) (Nat.max (c_foff s) (c_ofile s)) /\
  Nat.max (c_foff s) (c_ofile s) <= length (c_wal s).
Proof. intros ops s. destruct (cinv_reach ops) as (H1 & H2 & _). split; [exact H2 | exact H1]. Qed.

Lemma caught_up_applied : forall s, cinv s -> caught_up s = true -> c_up s = true /\ c_moff s = length (c_wal s).
Proof.
  intros s (_ & _ & Hu) Hc. unfold caught_up in Hc.
  apply andb_prop in Hc as (Hc & Hp). apply andb_prop in Hc as (U & R). apply Nat.eqb_eq in R.
  destruct (Hu U) as (N & _ & _ & Q). destruct (c_pend s); [|discriminate Hp].
  symmetry in Q. apply pend_of_nil_inv in Q; [|lia]. split; [exact U|]. rewrite Q. exact R.
Qed.
Lemma caught_up_content : forall s, cinv s -> caught_up s = true -> ccontent s = expected (c_wal s).
Proof.
  intros s Hi Hc. destruct (caught_up_applied s Hi Hc) as (U & M). destruct Hi as (_ & _ & Hu).
  destruct (Hu U) as (_ & _ & C & _). rewrite C, M. apply expected_upto_all.
Qed.

(* what a step does to the fields catch_up watches *)
Lemma step_fields : forall a s o,
  c_wal (cstep a s o) = match o with Ack p k => c_wal s ++ [{| c_pass := p; c_k := k |}] | _ => c_wal s end
  /\ c_up (cstep a s o) = match o with Crash => false | Open => true | _ => c_up s end
  /\ c_rpos (cstep a s o) = match o with
                            | Read => if c_up s && (c_rpos s <? length (c_wal s)) then S (c_rpos s) else c_rpos s
                            | Crash => 0
                            | Open => if c_up s then c_rpos s else Nat.max (c_foff s) (c_ofile s)
                            | _ => c_rpos s
                            end.
Proof.
  intros a [wal file foff ofile up rpos pend mem moff changed] o.
  destruct o; cbn; auto; destruct up; cbn; auto.
  - destruct (rpos <? length wal); auto.
  - destruct pend as [|[] ?]; auto.
  - destruct mem; auto.
Qed.
Definition step_wal a s o := proj1 (step_fields a s o).
Definition step_up a s o := proj1 (proj2 (step_fields a s o)).
Definition step_rpos a s o := proj2 (proj2 (step_fields a s o)).
Lemma apply_pend : forall a s, c_up s = true -> c_pend (cstep a s Apply) = tl (c_pend s).
Proof. intros a [wal file foff ofile up rpos pend mem moff changed] U. cbn in U. subst up. cbn. destruct pend as [|[] ?]; reflexivity. Qed.

Definition idle (s:cstate) (wal:list centry) (r:nat) : Prop :=
  c_up s = true /\ c_pend s = [] /\ c_wal s = wal /\ c_rpos s = r.

Lemma idle_caught_up : forall s wal, idle s wal (length wal) -> caught_up s = true /\ c_wal s = wal.
Proof. intros s wal (U & P & W & R). unfold caught_up. rewrite U, P, R, W, Nat.eqb_refl. split; reflexivity. Qed.

Lemma drain_idle : forall a n s, c_up s = true -> length (c_pend s) = n ->
  idle (crun a s (repeat Apply n)) (c_wal s) (c_rpos s).
Proof.
  intros a. induction n as [|n IH]; intros s U L.
  - apply length_zero_iff_nil in L. repeat split; assumption.
  - cbn [repeat]. rewrite crun_cons. specialize (IH (cstep a s Apply)).
    rewrite step_up, step_wal, step_rpos, apply_pend in IH by exact U.
    apply IH; [exact U|]. destruct (c_pend s); [discriminate L|]. injection L as L. exact L.
Qed.

(* one turn of catch_up's loop: read an entry and apply what it became *)
Local Notation round a st :=
  (crun a (cstep a st Read) (repeat Apply (length (c_pend (cstep a st Read))))).

Lemma round_idle : forall a s wal r, idle s wal r -> r < length wal -> idle (round a s) wal (S r).
Proof.
  intros a s wal r (U & _ & <- & <-) L.
  pose proof (drain_idle a (length (c_pend (cstep a s Read))) (cstep a s Read)) as H.
  rewrite step_up, step_wal, step_rpos, U, (proj2 (Nat.ltb_lt _ _) L) in H.
  apply H; reflexivity.
Qed.

Lemma catch_loop : forall a wal n b s r, idle s wal r -> r + n = length wal ->
  idle (fold_left (fun st (_:nat) => round a st) (seq b n) s) wal (length wal).
Proof.
  intros a wal. induction n as [|n IH]; intros b s r H E; cbn [seq fold_left].
  - rewrite Nat.add_0_r in E. rewrite <- E. exact H.
  - apply (IH (S b) _ (S r)); [apply round_idle; [exact H|lia]|lia].
Qed.

Lemma cinv_catch_up : forall s, cinv s -> cinv (catch_up true s).
Proof.
  intros s H. unfold catch_up. cbv zeta. apply fold_left_inv.
  - intros st _ Hst. apply cinv_run, cinv_step, Hst.
  - apply cinv_run, cinv_step, H.
Qed.

(* the invariant is needed for one thing only: the reader is not beyond the end of the WAL *)
Lemma catch_up_idle : forall s, cinv s -> idle (catch_up true s) (c_wal s) (length (c_wal s)).
Proof.
  intros s Hi. unfold catch_up. cbv zeta.
  destruct (drain_idle true (length (c_pend (cstep true s Open))) (cstep true s Open)) as (U2 & P2 & W2 & R2);
    [rewrite step_up; reflexivity|reflexivity|].
  set (s2 := crun true (cstep true s Open) _) in *.
  assert (c_wal s2 = c_wal s) as W by (rewrite W2; apply step_wal).
  assert (cinv s2) as (_ & _ & Hu) by (apply cinv_run, cinv_step, Hi). destruct (Hu U2) as (N & _).
  apply (catch_loop true (c_wal s) _ 0 s2 (c_rpos s2)); [repeat split; assumption|rewrite <- W; lia].
Qed.

Lemma catch_up_correct : forall s, cinv s ->
  caught_up (catch_up true s) = true /\
  ccontent (catch_up true s) = expected (c_wal (catch_up true s)) /\
  c_wal (catch_up true s) = c_wal s.
Proof.
  intros s Hi. destruct (idle_caught_up _ _ (catch_up_idle s Hi)) as (Hc & W).
  split; [exact Hc|]. split; [|exact W]. apply caught_up_content; [apply cinv_catch_up, Hi|exact Hc].
Qed.

(* main: kill the process at any instant of any history (any number of times), restart, let ingestion catch up:
   every acknowledged insert is reflected exactly once *)
Theorem crash_recovery_exactly_once : forall ops, let s := catch_up true (crun true cinit ops) in
  caught_up s = true /\ ccontent s = expected (c_wal s) /\ c_wal s = c_wal (crun true cinit ops).
Proof.
  intros ops. exact (catch_up_correct (crun true cinit ops) (cinv_reach ops)).
Qed.

Definition pair_eq_dec : forall x y : nat * nat, {x = y} + {x <> y}.
Proof. decide equality; apply Nat.eq_dec. Defined.

Lemma count_occ_seq : forall a n i, count_occ Nat.eq_dec (seq a n) i = if (a <=? i) && (i <? a + n) then 1 else 0.
Proof.
  intros a n i. destruct (Nat.leb_spec a i), (Nat.ltb_spec i (a + n)); cbn [andb];
    [apply NoDup_count_occ'; [apply seq_NoDup|apply in_seq; lia] | apply count_occ_not_In; rewrite in_seq; lia ..].
Qed.

Lemma count_occ_map_seq : forall n a b off i,
  count_occ pair_eq_dec (map (fun j => (b, j)) (seq a n)) (off, i) =
  if (off =? b) && (a <=? i) && (i <? a + n) then 1 else 0.
Proof.
  intros n a b off i. destruct (Nat.eqb_spec off b) as [->|Hne]; cbn [andb].
  - rewrite <- (count_occ_map (fun j => (b, j)) Nat.eq_dec pair_eq_dec) by (intros x y [= ->]; reflexivity). apply count_occ_seq.
  - apply count_occ_not_In. rewrite in_map_iff. intros (j & [= <- _] & _). apply Hne. reflexivity.
Qed.

Lemma count_occ_sub_of : forall b e off i,
  count_occ pair_eq_dec (sub_of b e) (off, i) =
  if (off =? b) && (c_pass e && (i <=? c_k e)) then 1 else 0.
Proof.
  intros b e off i. unfold sub_of. destruct (c_pass e).
  - rewrite count_occ_map_seq, <- andb_assoc. reflexivity.
  - cbn. rewrite andb_false_r. reflexivity.
Qed.

Lemma count_occ_expand : forall l b off i,
  count_occ pair_eq_dec (expand_from l b) (off, i) =
  if (b <=? off) && (off <? b + length l) &&
     (c_pass (nth (off - b) l dcentry) && (i <=? c_k (nth (off - b) l dcentry)))
  then 1 else 0.
Proof.
  induction l as [|e t IH]; intros b off i.
  - cbn [expand_from count_occ length]. rewrite Nat.add_0_r.
    destruct (Nat.leb_spec b off), (Nat.ltb_spec off b); try reflexivity. lia.
  - rewrite expand_from_cons, count_occ_app, IH, count_occ_sub_of. cbn [length]. rewrite Nat.add_succ_r.
    destruct (lt_eq_lt_dec off b) as [[Hlt| ->]|Hgt].
    + (* before the head's offset: in neither part *)
      rewrite (proj2 (Nat.eqb_neq off b)), (proj2 (Nat.leb_gt b off)), (proj2 (Nat.leb_gt (S b) off)) by lia.
      reflexivity.
    + (* the head's offset: not in the tail *)
      rewrite Nat.eqb_refl, Nat.leb_refl, Nat.sub_diag, (proj2 (Nat.leb_gt (S b) b)), (proj2 (Nat.ltb_lt b (S (b + length t)))) by lia.
      apply Nat.add_0_r.
    + (* beyond it: entry off - S b of the tail is entry off - b of the list *)
      rewrite (proj2 (Nat.eqb_neq off b)), (proj2 (Nat.leb_le b off)), (proj2 (Nat.leb_le (S b) off)) by lia.
      replace (off - b) with (S (off - S b)) by lia. reflexivity.
Qed.

Theorem every_acked_insert_once : forall ops, let s := catch_up true (crun true cinit ops) in
  forall off i, count_occ pair_eq_dec (ccontent s) (off, i) =
    if (andb (andb (Nat.leb 1 off) (Nat.leb off (length (c_wal s))))
             (andb (c_pass (nth (off - 1) (c_wal s) dcentry))
                   (Nat.leb i (c_k (nth (off - 1) (c_wal s) dcentry)))))
    then 1 else 0.
Proof.
  intros ops s off i.
  destruct (crash_recovery_exactly_once ops) as (_ & B & _). fold s in B.
  rewrite B. unfold expected. rewrite count_occ_expand. reflexivity. (* off <? 1 + n computes to off <=? n *)
Qed.

Lemma flush_durable : forall s, cinv s -> c_up s = true -> cP (cstep true s Flush) = c_moff s.
Proof.
  intros [wal file foff ofile up rpos pend mem moff changed] (_ & _ & Hu) U. cbn in *. subst up.
  destruct (Hu eq_refl) as (N & F & _). clear Hu. destruct mem; [destruct changed|]; cbn; lia.
Qed.

Lemma reopen_caught_up : forall s, caught_up (cstep true (cstep true s Crash) Open) = Nat.eqb (cP s) (length (c_wal s)).
Proof. intros s. unfold caught_up. cbn. apply andb_true_r. Qed.

(* A clean shutdown (flush, the process ends, reopening) is a kill with nothing in flight: caught up before, caught
   up after, and nothing to replay into the memstore. *)
Lemma clean_close_inv : forall s, cinv s -> caught_up s = true ->
  let s' := cstep true (cstep true (cstep true s Flush) Crash) Open in
  caught_up s' = true /\ ccontent s' = expected (c_wal s') /\ c_mem s' = [].
Proof.
  intros s Hi Hc s'. destruct (caught_up_applied s Hi Hc) as (U & M).
  assert (caught_up s' = true) as Hc'.
  { unfold s'. rewrite reopen_caught_up, (flush_durable s Hi U), M, step_wal. apply Nat.eqb_refl. }
  split; [exact Hc'|]. split; [|reflexivity]. apply caught_up_content; [|exact Hc']. do 3 apply cinv_step. exact Hi.
Qed.

Theorem clean_close_special_case : forall ops, let s := crun true cinit ops in caught_up s = true ->
  let s' := cstep true (cstep true (cstep true s Flush) Crash) Open in
  caught_up s' = true /\ ccontent s' = expected (c_wal s') /\ c_mem s' = [].
Proof.
  intros ops s Hc. apply clean_close_inv; [apply cinv_reach | exact Hc].
Qed.

(* The code as shipped: a point with a two-element array is acknowledged and read (two items), the first item is
   applied, a flush writes it under the point's offset, the kill loses the second: the reopening resumes after the point. *)
Theorem array_split_refuted : exists ops, let s := catch_up false (crun false cinit ops) in
  caught_up s = true /\ ccontent s <> expected (c_wal s).
Proof.
  exists [Ack true 1; Read; Apply; Flush; Crash]. cbv zeta.
  split.
  - vm_compute. reflexivity.
  - vm_compute. intros H. discriminate H.
Qed.

Lemma items_scalar : forall off e, c_k e = 0 -> items false off e = items true off e.
Proof.
  intros off e H. unfold items. rewrite H. destruct (c_pass e); reflexivity.
Qed.

Definition scalar_wal (l:list centry) : Prop := Forall (fun e => c_k e = 0) l.

Lemma scalar_nth : forall l n, scalar_wal l -> c_k (nth n l dcentry) = 0.
Proof.
  intros l n H. destruct (nth_in_or_default n l dcentry) as [Hin|E]; [|rewrite E; reflexivity].
  exact (proj1 (Forall_forall _ l) H _ Hin).
Qed.

Lemma step_scalar : forall s o, scalar_wal (c_wal s) -> cstep false s o = cstep true s o.
Proof.
  intros s o H. destruct o; try reflexivity.
  cbn [cstep]. rewrite items_scalar by (apply scalar_nth; exact H). reflexivity.
Qed.

Lemma run_scalar : forall ops s, scalar_wal (c_wal s) -> (forall p k, In (Ack p k) ops -> k = 0) ->
  crun false s ops = crun true s ops.
Proof.
  induction ops as [|o ops IH]; intros s Hs Hk.
  - reflexivity.
  - rewrite !crun_cons. rewrite step_scalar by exact Hs.
    apply IH.
    + rewrite step_wal. destruct o as [p k | | | | | ]; try exact Hs.
      apply Forall_app. split; [exact Hs|].
      constructor; [|constructor]. cbn. apply (Hk p k). left. reflexivity.
    + intros p k Hin. apply (Hk p k). right. exact Hin.
Qed.

(* without array values every point is one row-store insert, and shipped and repaired code run alike *)
Theorem scalar_histories_unaffected : forall ops, (forall p k, In (Ack p k) ops -> k = 0) ->
  crun false cinit ops = crun true cinit ops.
Proof.
  intros ops Hk. apply run_scalar; [constructor | exact Hk].
Qed.

Definition sample_history : list cop :=
  [Ack true 2; Ack false 0; Read; Apply; Flush;      (* array entry applied, data flush *)
   Read; Apply; Flush;                               (* skipped entry, offsets-only flush *)
   Crash; Open;                                      (* first kill and reopening *)
   Ack true 0; Read; Apply; Ack true 1; Read;        (* memstore and pending work lost by the second kill *)
   Crash; Open; Ack false 3].

Example sample_history_content :
  ccontent (catch_up true (crun true cinit sample_history)) = [(1,0); (1,1); (1,2); (3,0); (4,0); (4,1)] /\
  c_ofile (crun true cinit sample_history) = 2 /\ c_foff (crun true cinit sample_history) = 1.
Proof. vm_compute. repeat split. Qed.

Example crash_nonvacuous : exists ops, let s := catch_up true (crun true cinit ops) in
  4 <= length (ccontent s) /\ In Crash ops /\ In Flush ops.
Proof.
  exists sample_history. cbv zeta.
  split; [vm_compute; lia|].
  split; unfold sample_history; simpl; tauto.
Qed.

Print Assumptions content_is_prefix.
Print Assumptions disk_is_prefix.
Print Assumptions crash_recovery_exactly_once.
Print Assumptions every_acked_insert_once.
Print Assumptions clean_close_special_case.
Print Assumptions array_split_refuted.
Print Assumptions scalar_histories_unaffected.
Print Assumptions crash_nonvacuous.
