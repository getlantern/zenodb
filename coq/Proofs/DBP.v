(* DBP.v — facts about the specification-level query model (Model/DB.v):
   periods, buckets, windows, groups, filters (C01, C06, C07, C08). *)
From Coq Require Import Lia.
From Zeno Require Import Base ListP BaseP SortP Expr DB.
Local Open Scope Z_scope.

(* a timestamp falls into exactly one native period: the one ending at the least multiple of res >= ts *)
Lemma bucket_spec : forall res ts, 0 < res ->
  let b := bucket res ts in
  ts <= b < ts + res /\ (exists k, b = k * res) /\
  (forall b', (exists k', b' = k' * res) -> ts <= b' -> b <= b').
Proof.
  intros res ts Hr b. unfold b, bucket, ceil_mul.
  pose proof (div_grid (- ts) res Hr) as D.
  split; [lia|]. split; [exists (- (- ts / res)); reflexivity|].
  (* a multiple k' * res at or above ts lies less than one period below b, so k' is not below b's multiplier *)
  intros b' [k' ->] Hb'.
  set (q := - ts / res) in *. clearbody q.
  assert (Hlt : (- q - k') * res < 1 * res) by lia.
  apply Z.mul_lt_mono_pos_r in Hlt; [|lia]. nia.
Qed.

Lemma bucket_unique : forall res ts b, 0 < res -> (exists k, b = k * res) -> ts <= b < ts + res -> b = bucket res ts.
Proof.
  intros res ts b Hr [k ->] Hb. destruct (bucket_spec res ts Hr) as [B1 [[k0 B2] B3]].
  rewrite B2 in *. assert (k = k0); [|subst; reflexivity]. nia.
Qed.

(* coarser periods anchored at until: T - p < t <= T, T on the grid anchored at u *)
Lemma out_bucket_spec : forall u p t, 0 < p -> t <= u ->
  let T := out_bucket u p t in
  T - p < t <= T /\ T <= u /\ exists n, 0 <= n /\ T = u - n * p.
Proof.
  intros u p t Hp Ht T. unfold T, out_bucket.
  pose proof (div_grid (u - t) p Hp) as D.
  assert (0 <= (u - t) / p) by (apply Z.div_pos; lia).
  split; [nia|]. split; [nia|]. exists ((u - t) / p). split; [assumption|reflexivity].
Qed.

(* the output periods of one key are pairwise disjoint: a native period lies in exactly one of them *)
Lemma out_bucket_unique : forall u p t T n, 0 < p -> t <= u -> 0 <= n -> T = u - n * p -> T - p < t <= T ->
  T = out_bucket u p t.
Proof.
  intros u p t T n Hp Ht Hn -> HT.
  destruct (out_bucket_spec u p t Hp Ht) as [B1 [B2 [m [Hm B3]]]]. rewrite B3 in *.
  assert (n = m); [|subst; reflexivity]. nia.
Qed.

Lemma key_eqb_eq : forall a b, key_eqb a b = true <-> a = b.
Proof. exact (list_eqb_eq _ (pair_eqb_eq _ _ Z.eqb_eq val_eqb_eq)). Qed.
Lemma key_eqb_refl : forall a, key_eqb a a = true.
Proof. intros. apply key_eqb_eq. reflexivity. Qed.

Lemma kt_eqb_spec : forall k t k' t', reflect ((k, t) = (k', t')) (key_eqb k k' && (t =? t')).
Proof. intros. apply iff_reflect. symmetry. exact (pair_eqb_eq key_eqb Z.eqb key_eqb_eq Z.eqb_eq (k, t) (k', t')). Qed.

Definition gmatch (k:key) (t:Z) (g:key * Z * list point) : bool := key_eqb k (fst (fst g)) && (t =? snd (fst g)).
Definition glookup (k:key) (t:Z) (gs:list (key * Z * list point)) : list point :=
  match find (gmatch k t) gs with Some g => snd g | None => [] end.

Lemma glookup_cons : forall k t k0 t0 ps gs,
  glookup k t ((k0, t0, ps) :: gs) = if key_eqb k k0 && (t =? t0) then ps else glookup k t gs.
Proof. intros. unfold glookup. cbn [find]. unfold gmatch at 1. cbn [fst snd]. destruct (key_eqb k k0 && (t =? t0)); reflexivity. Qed.

Lemma add_to_group_lookup : forall gs k t k' t' pt,
  glookup k t (add_to_group k' t' pt gs) =
  if key_eqb k k' && (t =? t') then glookup k t gs ++ [pt] else glookup k t gs.
Proof.
  induction gs as [|[[k0 t0] ps] gs IH]; intros k t k' t' pt; cbn [add_to_group].
  - rewrite glookup_cons. destruct (key_eqb k k' && (t =? t')); reflexivity.
  - destruct (kt_eqb_spec k' t' k0 t0) as [[= <- <-]|N]; rewrite 2 glookup_cons.
    + destruct (key_eqb k k' && (t =? t')); reflexivity.
    + rewrite IH. destruct (kt_eqb_spec k t k0 t0) as [[= <- <-]|]; [|reflexivity].
      destruct (kt_eqb_spec k t k' t') as [E|]; [|reflexivity]. symmetry in E. contradiction.
Qed.

Definition contributes_to (T:table) (q:query) (k:key) (t:Z) (p:tpoint) : bool :=
  match contributes T q p with Some (k', t') => key_eqb k k' && (t =? t') | None => false end.

Lemma contributes_to_spec : forall T q k t x, contributes_to T q k t x = true <-> contributes T q x = Some (k, t).
Proof.
  intros T q k t x. unfold contributes_to. destruct (contributes T q x) as [[k' t']|]; [|split; discriminate].
  destruct (kt_eqb_spec k t k' t'); split; congruence.
Qed.

(* the step of the fold in DB.groups, which has this function written out in place: groups_lookup and
   groups_distinct pass from one to the other by conversion *)
Definition gstep (T:table) (q:query) (gs:list (key * Z * list point)) (p:tpoint) :=
  match contributes T q p with Some (k, t) => add_to_group k t (tp_pt p) gs | None => gs end.

Lemma groups_lookup_gen : forall T q pts gs k t,
  glookup k t (fold_left (gstep T q) pts gs) =
  glookup k t gs ++ map tp_pt (filter (contributes_to T q k t) pts).
Proof.
  intros T q. induction pts as [|p pts IH]; intros gs k t; cbn [fold_left filter map].
  - rewrite app_nil_r. reflexivity.
  - rewrite IH. unfold gstep at 1. unfold contributes_to at 2.
    destruct (contributes T q p) as [[k' t']|]; [|reflexivity].
    rewrite add_to_group_lookup. destruct (key_eqb k k' && (t =? t')); cbn [map]; [rewrite <- app_assoc|]; reflexivity.
Qed.

(* the points of output row (k,t) are exactly the accepted in-window points that project to k and
   whose native period lies in the row's period, in arrival order *)
Theorem groups_lookup : forall T q pts k t,
  glookup k t (groups T q pts) = map tp_pt (filter (contributes_to T q k t) pts).
Proof. intros. unfold groups. apply (groups_lookup_gen T q pts [] k t). Qed.

(* exactly one group per (key, row timestamp) *)
Definition gkeys_nodup (gs:list (key * Z * list point)) : Prop :=
  forall i j g h, nth_error gs i = Some g -> nth_error gs j = Some h -> i <> j ->
  gmatch (fst (fst g)) (snd (fst g)) h = false.

Definition gdistinct (gs:list (key * Z * list point)) : Prop :=
  NoDup (map fst gs).

Lemma add_to_group_fst : forall gs k t pt,
  map fst (add_to_group k t pt gs) = if existsb (gmatch k t) gs then map fst gs else map fst gs ++ [(k, t)].
Proof.
  induction gs as [|[[k0 t0] ps] gs IH]; intros k t pt; [reflexivity|].
  cbn [add_to_group existsb]. unfold gmatch at 1. cbn [fst snd].
  destruct (key_eqb k k0 && (t =? t0)); cbn [orb map fst]; [reflexivity|].
  rewrite IH. destruct (existsb (gmatch k t) gs); reflexivity.
Qed.

Lemma add_to_group_distinct : forall gs k t pt, gdistinct gs -> gdistinct (add_to_group k t pt gs).
Proof.
  unfold gdistinct. intros gs k t pt H. rewrite add_to_group_fst.
  destruct (existsb (gmatch k t) gs) eqn:E; [exact H|].
  apply (Permutation.Permutation_NoDup (Permutation.Permutation_cons_append _ _)). constructor; [|exact H].
  intros Hk. apply in_map_iff in Hk as [[[k0 t0] ps] [[= -> ->] Hin]].
  apply Bool.not_true_iff_false in E. apply E, existsb_exists. exists (k, t, ps). split; [exact Hin|].
  unfold gmatch. cbn [fst snd]. rewrite key_eqb_refl, Z.eqb_refl. reflexivity.
Qed.

Theorem groups_distinct : forall T q pts, gdistinct (groups T q pts).
Proof.
  intros T q pts. unfold groups. apply fold_left_inv; [|constructor].
  intros gs p H. unfold gstep. destruct (contributes T q p) as [[k t]|]; [apply add_to_group_distinct|]; exact H.
Qed.

(* every point contributes to at most one row, and that row's window contains its native period *)
Theorem contributes_window : forall T q p k t, contributes T q p = Some (k, t) -> needs_group T q = true ->
  0 < q_period' T q -> bucket (t_res T) (tp_ts p) <= q_until' T q ->
  q_asof' T q < bucket (t_res T) (tp_ts p) <= q_until' T q /\
  t - q_period' T q < bucket (t_res T) (tp_ts p) <= t /\ t <= q_until' T q.
Proof.
  intros T q p k t H Hg Hp Hu. unfold contributes in H.
  destruct (accepted T p && flag (q_where q) p); [|discriminate]. rewrite Hg in H.
  destruct ((q_asof' T q <? bucket (t_res T) (tp_ts p)) && (bucket (t_res T) (tp_ts p) <=? q_until' T q)) eqn:E; [|discriminate].
  apply andb_prop in E. destruct E as [E1 E2]. apply Z.ltb_lt in E1. apply Z.leb_le in E2.
  injection H as <- <-. destruct (out_bucket_spec (q_until' T q) (q_period' T q) (bucket (t_res T) (tp_ts p)) Hp E2) as [A [B _]].
  split; [lia|]. split; [exact A|exact B].
Qed.

(* no row for a native period outside (asOf', until'] *)
Theorem outside_window_no_contribution : forall T q p, needs_group T q = true ->
  (bucket (t_res T) (tp_ts p) <= q_asof' T q \/ q_until' T q < bucket (t_res T) (tp_ts p)) ->
  contributes T q p = None.
Proof.
  intros T q p Hg H. unfold contributes. destruct (accepted T p && flag (q_where q) p); [|reflexivity].
  rewrite Hg. destruct (Z.ltb_spec (q_asof' T q) (bucket (t_res T) (tp_ts p))); destruct (Z.leb_spec (bucket (t_res T) (tp_ts p)) (q_until' T q)); cbn [andb]; try reflexivity; lia.
Qed.

(* WHERE = the same query over only the matching points *)
Definition without_where (q:query) : query :=
  {| q_fields := q_fields q; q_groupby := q_groupby q; q_period := q_period q; q_asof := q_asof q;
     q_until := q_until q; q_where := None; q_now := q_now q; q_vis := q_vis q; q_limit := q_limit q |}.

Lemma contributes_where : forall T q p,
  contributes T q p = if flag (q_where q) p then contributes T (without_where q) p else None.
Proof.
  intros T q p. unfold contributes. cbn [q_where without_where flag].
  destruct (flag (q_where q) p); [|rewrite andb_false_r; reflexivity]. rewrite andb_true_r. reflexivity.
Qed.

Theorem groups_where : forall T q pts,
  groups T q pts = groups T (without_where q) (filter (flag (q_where q)) pts).
Proof.
  intros T q pts. unfold groups. generalize (@nil (key * Z * list point)) as gs.
  induction pts as [|p pts IH]; intros gs; cbn [fold_left filter]; [reflexivity|].
  rewrite (contributes_where T q p). destruct (flag (q_where q) p); cbn [fold_left]; apply IH.
Qed.

Theorem spec_rows_where : forall T q pts,
  spec_rows T q pts = spec_rows T (without_where q) (filter (flag (q_where q)) pts).
Proof. intros. unfold spec_rows. rewrite groups_where. reflexivity. Qed.
