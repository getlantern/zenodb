(* StoreExprP.v — the generic store refinement (StoreP.v) instantiated with zenodb's
   expression states: cells are the well-shaped states of an expression e, merging is
   Expr.merge, an insert applies Expr.update.  Result: for every flush schedule, what a
   memstore-inclusive reader finds for (key, period) reads, through Expr.get, as the declared
   aggregate of exactly the points of that key and period. *)
From Coq Require Import Eqdep_dec.
From Zeno Require Import Base Expr ExprSpec ExprP Seq Store StoreP DB DBP.
Local Open Scope Z_scope.

Section SE.
Variable e : expr.

Definition scell := { c : cell | shaped e c = true }.
Definition sc_empty : scell := exist _ (empty e) (shaped_empty e).
Definition sc_merge (x y:scell) : scell :=
  exist _ (Expr.merge e (proj1_sig x) (proj1_sig y)) (shaped_merge e _ _ (proj2_sig x) (proj2_sig y)).
Definition sc_update (p:point) (x:scell) : scell :=
  exist _ (update e (proj1_sig x) (p_vals p) (p_md p)) (shaped_update e _ _ _ (proj2_sig x)).

Lemma sc_eq : forall x y:scell, proj1_sig x = proj1_sig y -> x = y.
Proof.
  intros [x px] [y py] H. cbn in H. subst y. f_equal. apply UIP_dec. apply Bool.bool_dec.
Qed.

Lemma sc_merge_empty_l : forall x, sc_merge sc_empty x = x.
Proof. intros x. apply sc_eq. cbn. apply merge_empty_l. exact (proj2_sig x). Qed.
Lemma sc_merge_empty_r : forall x, sc_merge x sc_empty = x.
Proof. intros x. apply sc_eq. cbn. apply merge_empty_r. exact (proj2_sig x). Qed.
Lemma sc_merge_comm : forall x y, sc_merge x y = sc_merge y x.
Proof. intros x y. apply sc_eq. cbn. apply merge_comm; [exact (proj2_sig x)|exact (proj2_sig y)]. Qed.
Lemma sc_merge_update : forall p x y, sc_merge x (sc_update p y) = sc_update p (sc_merge x y).
Proof. intros p x y. apply sc_eq. cbn. apply merge_update; [exact (proj2_sig x)|exact (proj2_sig y)]. Qed.

(* table-level events: an accepted point (with the truncateBefore in force when it is processed) or a flush *)
Inductive ev := EIns (k:key) (ts tb:Z) (p:point) | EFlush (tb:Z) (raw:bool).
Definition to_sop (x:ev) : sop key scell :=
  match x with
  | EIns k ts tb p => SInsert key scell k ts tb (sc_update p)
  | EFlush tb raw => SFlush key scell tb raw
  end.
Definition ev_ok (res H:Z) (x:ev) : Prop :=
  match x with
  | EIns _ ts tb _ => 0 < ts /\ 0 <= tb /\ tb + res <= H
  | EFlush tb _ => 0 <= tb /\ tb + res <= H
  end.

(* the points of key k whose native period ends at t, in arrival order *)
Fixpoint points_of (res:Z) (k:key) (t:Z) (evs:list ev) : list point :=
  match evs with
  | [] => []
  | EIns k' ts _ p :: r => if key_eqb k k' && (round_up ts res =? t) then p :: points_of res k t r else points_of res k t r
  | EFlush _ _ :: r => points_of res k t r
  end.

Lemma ev_ok_op_ok : forall res H evs, Forall (ev_ok res H) evs ->
  Forall (op_ok key scell sc_merge res H) (map to_sop evs).
Proof.
  intros res H evs F. induction F as [|x r Hx _ IH]; cbn [map]; constructor; auto.
  destruct x as [k ts tb p|tb raw]; cbn in *; [|exact Hx].
  destruct Hx as [A [B C]]. repeat split; auto. intros a b. apply sc_merge_update.
Qed.

Lemma spec_cell_points : forall res k t evs acc,
  proj1_sig (spec_cell key key_eqb scell res k t (map to_sop evs) acc) = run e (points_of res k t evs) (proj1_sig acc).
Proof.
  intros res k t. induction evs as [|x r IH]; intros acc; [reflexivity|].
  destruct x as [k' ts tb p|tb raw]; cbn [map to_sop spec_cell points_of]; [|apply IH].
  destruct (key_eqb k k' && (round_up ts res =? t)); rewrite IH; reflexivity.
Qed.

Definition store_of (res:Z) (evs:list ev) : sstate key scell :=
  srun key key_eqb scell sc_empty sc_merge res (map to_sop evs).
Definition read (res tbq:Z) (evs:list ev) (k:key) (t:Z) : cell :=
  proj1_sig (content key key_eqb scell sc_empty sc_merge res tbq (store_of res evs) k t).

(* the state a reader finds is the state accumulated from exactly the points of (k, t) *)
Theorem store_reads_accumulated_state : forall res H evs tbq k t,
  0 < res -> Forall (ev_ok res H) evs -> 0 <= tbq -> tbq + res <= H -> H <= t -> 0 < t ->
  read res tbq evs k t = st e (points_of res k t evs).
Proof.
  intros res H evs tbq k t Hr Hok Hq HqH Ht H0. unfold read, store_of.
  rewrite (store_content key key_eqb key_eqb_eq scell sc_empty sc_merge sc_merge_empty_l sc_merge_empty_r sc_merge_comm res H)
    by (assumption || (apply ev_ok_op_ok; assumption)).
  rewrite spec_cell_points. reflexivity.
Qed.

(* ... and its value is the declared aggregate over exactly those points, whatever the flush schedule *)
Theorem store_reads_declared_aggregate : forall res H evs tbq k t,
  0 < res -> Forall (ev_ok res H) evs -> 0 <= tbq -> tbq + res <= H -> H <= t -> 0 < t ->
  get e (read res tbq evs k t) = ref e (points_of res k t evs).
Proof. intros. erewrite store_reads_accumulated_state by eassumption. apply get_ref. Qed.

Definition is_ins (x:ev) : bool := match x with EIns _ _ _ _ => true | EFlush _ _ => false end.
Lemma points_of_inserts : forall res k t evs, points_of res k t evs = points_of res k t (filter is_ins evs).
Proof.
  intros res k t. induction evs as [|x r IH]; [reflexivity|].
  destruct x as [k' ts tb p|tb raw]; cbn [filter is_ins points_of]; [|exact IH].
  destruct (key_eqb k k' && (round_up ts res =? t)); rewrite IH; reflexivity.
Qed.

(* what points_of looks at in an event: key, timestamp and point of an insert, not its truncation bound *)
Definition ins_data (x:ev) : option (key * Z * point) :=
  match x with EIns k ts _ p => Some (k, ts, p) | EFlush _ _ => None end.
Lemma points_of_ins_data : forall res k t a b, map ins_data a = map ins_data b -> points_of res k t a = points_of res k t b.
Proof.
  intros res k t. induction a as [|x a IH]; intros [|y b] E; try discriminate E; [reflexivity|].
  injection E as E1 E2. specialize (IH b E2).
  destruct x as [k1 ts1 tb1 p1|]; destruct y as [k2 ts2 tb2 p2|]; try discriminate E1; cbn [points_of]; [|exact IH].
  injection E1 as -> -> ->. rewrite IH. reflexivity.
Qed.

(* two histories with the same inserts in the same order, split by any flushes, read the same *)
Theorem flush_schedule_irrelevant : forall res H evs1 evs2 tbq k t,
  0 < res -> Forall (ev_ok res H) evs1 -> Forall (ev_ok res H) evs2 -> 0 <= tbq -> tbq + res <= H -> H <= t -> 0 < t ->
  map ins_data (filter is_ins evs1) = map ins_data (filter is_ins evs2) ->
  read res tbq evs1 k t = read res tbq evs2 k t.
Proof.
  intros res H evs1 evs2 tbq k t Hr H1 H2 Hq HqH Ht H0 E.
  rewrite (store_reads_accumulated_state res H evs1 tbq k t), (store_reads_accumulated_state res H evs2 tbq k t); auto.
  f_equal. rewrite (points_of_inserts res k t evs1), (points_of_inserts res k t evs2). apply points_of_ins_data. exact E.
Qed.

(* immediately after a flush a disk-only reader finds what a memstore-inclusive reader finds *)
Theorem disk_only_after_flush : forall res H evs tb raw tbq k t,
  0 < res -> Forall (ev_ok res H) evs -> ev_ok res H (EFlush tb raw) ->
  0 <= tbq -> tbq + res <= H -> H <= t -> 0 < t ->
  let s := store_of res (evs ++ [EFlush tb raw]) in
  proj1_sig (match den scell res (merge scell sc_empty sc_merge (lookup key key_eqb scell k (s_file key scell s)) None res tbq) t
             with Some c => c | None => sc_empty end)
  = read res tbq (evs ++ [EFlush tb raw]) k t.
Proof.
  intros res H evs tb raw tbq k t Hr Hok Hf Hq HqH Ht H0 s. unfold read, s, store_of. rewrite map_app. cbn [map to_sop].
  apply f_equal.
  apply (disk_equals_mem_after_flush key key_eqb scell sc_empty sc_merge res H); auto using ev_ok_op_ok.
Qed.
End SE.
