(* BaseP.v — lemmas about the rounding and the list operations of Model/Base.v *)
From Coq Require Import Lia.
From Zeno Require Import Base.

(* the one fact about division that the rounding lemmas of SeqP, SeqMergeP, DBP and RetentionP need *)
Lemma div_grid : forall x res, 0 < res -> x / res * res <= x < x / res * res + res.
Proof. intros x res Hr. pose proof (Z.div_mod x res ltac:(lia)). pose proof (Z.mod_pos_bound x res Hr). lia. Qed.

Lemma ltb_to_nat : forall i n, 0 <= i -> (Z.to_nat i <? n)%nat = (i <? Z.of_nat n).
Proof. intros i n Hi. destruct (Nat.ltb_spec (Z.to_nat i) n); destruct (Z.ltb_spec i (Z.of_nat n)); reflexivity || lia. Qed.
Lemma eqb_to_nat : forall i n, 0 <= i -> (Z.to_nat i =? n)%nat = (i =? Z.of_nat n).
Proof. intros i n Hi. destruct (Nat.eqb_spec (Z.to_nat i) n); destruct (Z.eqb_spec i (Z.of_nat n)); reflexivity || lia. Qed.

(* a decided test, for rewriting *)
Lemma ltb_true : forall a b, a < b -> (a <? b) = true.
Proof. intros a b. apply Z.ltb_lt. Qed.
Lemma ltb_false : forall a b, b <= a -> (a <? b) = false.
Proof. intros a b. apply Z.ltb_ge. Qed.

Lemma firstz_firstn {A} : forall (l:list A) n, firstz n l = firstn (Z.to_nat n) l.
Proof.
  induction l as [|x l IH]; intros n; cbn [firstz]; [rewrite firstn_nil; reflexivity|].
  destruct (Z.ltb_spec 0 n).
  - rewrite IH. replace (Z.to_nat n) with (S (Z.to_nat (n - 1))) by lia. reflexivity.
  - replace (Z.to_nat n) with O by lia. reflexivity.
Qed.
Lemma skipz_skipn {A} : forall (l:list A) n, skipz n l = skipn (Z.to_nat n) l.
Proof.
  induction l as [|x l IH]; intros n; cbn [skipz]; [rewrite skipn_nil; reflexivity|].
  destruct (Z.ltb_spec 0 n).
  - rewrite IH. replace (Z.to_nat n) with (S (Z.to_nat (n - 1))) by lia. reflexivity.
  - replace (Z.to_nat n) with O by lia. reflexivity.
Qed.
Lemma nthz_nthc {A} : forall (l:list A) i, 0 <= i -> nthz i l = nthc (Z.to_nat i) l.
Proof.
  induction l as [|x l IH]; intros i Hi; cbn [nthz].
  - destruct (Z.to_nat i); reflexivity.
  - destruct (Z.eqb_spec i 0) as [->|N]; [reflexivity|].
    rewrite (ltb_false i 0 Hi), IH by lia.
    replace (Z.to_nat i) with (S (Z.to_nat (i - 1))) by lia. reflexivity.
Qed.

Lemma nthz_neg {A} : forall (l:list A) i, i < 0 -> nthz i l = None.
Proof.
  intros [|x l] i Hi; cbn [nthz]; [reflexivity|].
  destruct (Z.eqb_spec i 0); [lia|]. rewrite (ltb_true i 0 Hi). reflexivity.
Qed.

Lemma nthc_app {A} : forall (l1 l2:list A) i,
  nthc i (l1 ++ l2) = if (i <? length l1)%nat then nthc i l1 else nthc (i - length l1) l2.
Proof.
  induction l1 as [|x l1 IH]; intros l2 i.
  - simpl. rewrite Nat.sub_0_r. reflexivity.
  - destruct i as [|i]; simpl; [reflexivity|]. rewrite IH.
    change (S i <? S (length l1))%nat with (i <? length l1)%nat. reflexivity.
Qed.

Lemma nthc_repeat {A} : forall (x:A) n i, nthc i (repeat x n) = if (i <? n)%nat then Some x else None.
Proof.
  induction n as [|n IH]; intros i; simpl.
  - destruct i; reflexivity.
  - destruct i as [|i]; simpl; [reflexivity|]. rewrite IH.
    change (S i <? S n)%nat with (i <? n)%nat. reflexivity.
Qed.

Lemma nthc_in {A} : forall (l:list A) i, (i < length l)%nat -> exists x, nthc i l = Some x.
Proof.
  induction l as [|x l IH]; intros i H; simpl in H; [lia|].
  destruct i as [|i]; simpl; [eauto|]. apply IH. lia.
Qed.

Lemma nthc_upd {A} : forall (f:A->A) (l:list A) n i,
  nthc i (upd_nth n f l) = if (i =? n)%nat then option_map f (nthc i l) else nthc i l.
Proof.
  induction l as [|x l IH]; intros n i.
  - destruct n; destruct i; simpl; try reflexivity. destruct (_ =? _)%nat; reflexivity.
  - destruct n as [|n]; destruct i as [|i]; simpl; try reflexivity. apply IH.
Qed.

Lemma list_eqb_eq {A} (e:A->A->bool) : (forall x y, e x y = true <-> x = y) ->
  forall a b, list_eqb e a b = true <-> a = b.
Proof.
  intros He. induction a as [|x a IH]; destruct b as [|y b]; simpl; try (split; congruence).
  rewrite andb_true_iff, He, IH. split; [intros [-> ->]; auto|intros [= -> ->]; auto].
Qed.

Lemma pair_eqb_eq {A B} (ea:A->A->bool) (eb:B->B->bool) :
  (forall x y, ea x y = true <-> x = y) -> (forall x y, eb x y = true <-> x = y) ->
  forall x y : A * B, ea (fst x) (fst y) && eb (snd x) (snd y) = true <-> x = y.
Proof.
  intros Ha Hb [x1 x2] [y1 y2]. cbn [fst snd]. rewrite andb_true_iff, Ha, Hb.
  split; [intros [-> ->]; reflexivity|intros [= -> ->]; auto].
Qed.
