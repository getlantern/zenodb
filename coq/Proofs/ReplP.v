(* ReplP.v — proofs about the replication (follow) protocol model of Model/Repl.v.

   Main result: at every quiescent state reachable under [run_ok], every follower holds exactly the
   relevant entries of the leader's WAL, each once, in order.  The proof is by an inductive invariant
   ([inv]) over [run], pointwise over the followers: (A) a follower holds the relevant entries up to its
   offset ([finv]); (B) delivering what the leader has queued for it takes it, without jumping over a
   relevant entry ([gap], [qok]), as far as the leader's reader has come ([linv]). *)
From Coq Require Import List Arith Bool Lia Sorting.Permutation.
From Zeno Require Import ListP Repl.
Import ListNotations.

Lemma length_upd {A} (l:list A) i x : length (upd l i x) = length l.
Proof. revert i; induction l as [|a l IH]; intros [|i]; cbn; auto. Qed.

Lemma nth_upd_same {A} (l:list A) i x d : i < length l -> nth i (upd l i x) d = x.
Proof.
  revert i; induction l as [|a l IH]; intros [|i] H; cbn in *; try lia; auto.
  apply IH; lia.
Qed.

Lemma nth_upd_other {A} (l:list A) i j x d : i <> j -> nth j (upd l i x) d = nth j l d.
Proof.
  revert i j; induction l as [|a l IH]; intros [|i] [|j] H; cbn; auto; try congruence.
Qed.

Lemma upd_oob {A} (l:list A) i x : length l <= i -> upd l i x = l.
Proof.
  revert i; induction l as [|a l IH]; intros [|i] H; cbn in *; auto; try lia.
  f_equal; apply IH; lia.
Qed.

Lemma upd_nth_id {A} (l:list A) i d : upd l i (nth i l d) = l.
Proof. revert i; induction l as [|a l IH]; intros [|i]; cbn; auto. f_equal; auto. Qed.

Lemma upd_upd {A} (l:list A) i x y : upd (upd l i x) i y = upd l i y.
Proof. revert i; induction l as [|a l IH]; intros [|i]; cbn; auto. f_equal; auto. Qed.

Lemma upd_app_mid {A} (pre:list A) a t x : upd (pre ++ a :: t) (length pre) x = pre ++ x :: t.
Proof. induction pre as [|b pre IH]; cbn; [reflexivity|]. f_equal; exact IH. Qed.

Lemma map_upd {A B} (g:A->B) (l:list A) i x d :
  g x = g (nth i l d) -> map g (upd l i x) = map g l.
Proof.
  revert i; induction l as [|a l IH]; intros [|i] H; cbn in *; auto; f_equal; auto.
Qed.

Lemma Forall_upd {A} (P:A->Prop) (l:list A) i x : Forall P l -> P x -> Forall P (upd l i x).
Proof.
  intros Hl Hx; revert i; induction Hl as [|a l Ha Hl IH]; intros [|i]; cbn; auto.
Qed.

Lemma forallb_upd {A} (p:A->bool) (l:list A) i x :
  forallb p l = true -> p x = true -> forallb p (upd l i x) = true.
Proof.
  revert i; induction l as [|a l IH]; intros [|i] Hl Hx; cbn in *; auto;
    apply andb_prop in Hl; destruct Hl as [Ha Hl].
  - rewrite Hx, Hl; reflexivity.
  - rewrite Ha, IH; auto.
Qed.

(* offset o (1-based) designates an entry of the log that partition p must hold *)
Definition relo (p:nat) (log:list entry) (o:nat) : Prop :=
  1 <= o <= length log /\ relevant_b p (nth (o - 1) log dentry) = true.

Lemma rel_from_app p a b k : rel_from p (a ++ b) k = rel_from p a k ++ rel_from p b (k + length a).
Proof.
  revert k; induction a as [|e a IH]; intros k; cbn.
  - f_equal; lia.
  - rewrite IH. replace (S k + length a) with (k + S (length a)) by lia.
    destruct (relevant_b p e); reflexivity.
Qed.

Lemma rel_upto_S p log n : n < length log ->
  rel_upto p log (S n) = rel_upto p log n ++ (if relevant_b p (nth n log dentry) then [S n] else []).
Proof.
  intros H. unfold rel_upto. rewrite (firstn_S_nth log n dentry H), rel_from_app.
  rewrite firstn_length_le by lia. cbn. destruct (relevant_b p (nth n log dentry)); reflexivity.
Qed.

Lemma rel_upto_app p log l2 n : n <= length log -> rel_upto p (log ++ l2) n = rel_upto p log n.
Proof.
  intros H. unfold rel_upto. rewrite firstn_app_le by exact H. reflexivity.
Qed.

Lemma rel_upto_all p log : rel_upto p log (length log) = relevant p log.
Proof. unfold rel_upto, relevant. rewrite firstn_all. reflexivity. Qed.

(* the fixpoint is a filter over the offsets k, k+1, ..: membership and multiplicity are the library's facts about [filter] and [seq] *)
Lemma rel_from_filter p l k :
  rel_from p l k = filter (fun o => relevant_b p (nth (o - k) l dentry)) (seq k (length l)).
Proof.
  revert k; induction l as [|e l IH]; intros k; [reflexivity|].
  cbn [rel_from length seq filter]. rewrite Nat.sub_diag, IH. cbn [nth].
  rewrite (filter_ext_in _ (fun o => relevant_b p (nth (o - k) (e :: l) dentry))); [reflexivity|].
  intros o Ho. apply in_seq in Ho. replace (o - k) with (S (o - S k)) by lia. reflexivity.
Qed.

Lemma In_rel_from p l k o :
  In o (rel_from p l k) <-> (k <= o < k + length l /\ relevant_b p (nth (o - k) l dentry) = true).
Proof. rewrite rel_from_filter, filter_In, in_seq. reflexivity. Qed.

Lemma In_relevant p log o : In o (relevant p log) <-> relo p log o.
Proof.
  unfold relevant, relo. rewrite In_rel_from. split; intros [H1 H2]; (split; [lia|exact H2]).
Qed.

Lemma NoDup_rel_from p l k : NoDup (rel_from p l k).
Proof. rewrite rel_from_filter. apply NoDup_filter, seq_NoDup. Qed.

Lemma relo_app p log e o : o <= length log -> (relo p (log ++ [e]) o <-> relo p log o).
Proof.
  intros Ho. unfold relo. rewrite app_length. cbn.
  split; intros [H1 H2].
  - split; [lia|]. rewrite app_nth1 in H2 by lia. exact H2.
  - split; [lia|]. rewrite app_nth1 by lia. exact H2.
Qed.

Lemma relo_S p log b : relo p log (S b) <-> b < length log /\ relevant_b p (nth b log dentry) = true.
Proof. unfold relo. cbn. rewrite Nat.sub_0_r. split; intros [H1 H2]; (split; [lia|exact H2]). Qed.
Lemma relo_le p log o : relo p log o -> 1 <= o <= length log.
Proof. intros [H _]; exact H. Qed.

(* gaps, the stretches of the log without an entry for partition p: no offset in (a, b] designates an entry that p must hold *)
Definition gap (p:nat) (log:list entry) (a b:nat) : Prop := forall o, relo p log o -> o <= b -> o <= a.

Lemma gap_le p log a b : b <= a -> gap p log a b.
Proof. intros H o _ Ho. lia. Qed.

Lemma gap_mono p log a a' b b' : a <= a' -> b' <= b -> gap p log a b -> gap p log a' b'.
Proof. intros Ha Hb H o Ho Hc. specialize (H o Ho). lia. Qed.

Lemma gap_max p log a b c : gap p log a b -> gap p log (Nat.max a c) (Nat.max b c).
Proof. intros H o Ho Hc. specialize (H o Ho). lia. Qed.

Lemma gap_S p log a b : relevant_b p (nth b log dentry) = false -> gap p log a b -> gap p log a (S b).
Proof.
  intros Hr H o Ho Hc. destruct (Nat.eq_dec o (S b)) as [->|Hne]; [|apply H; [exact Ho|lia]].
  apply relo_S in Ho as [_ Ho]. congruence.
Qed.

Lemma gap_log_app p log e a b : b <= length log -> gap p log a b -> gap p (log ++ [e]) a b.
Proof. intros Hb H o Ho Hc. apply H; [|exact Hc]. apply (relo_app _ _ e); [lia|exact Ho]. Qed.

Lemma rel_upto_skip p log a b : a <= b -> b <= length log -> gap p log a b -> rel_upto p log b = rel_upto p log a.
Proof.
  induction b as [|b IH]; intros Hab Hb Hg.
  - replace a with 0 by lia. reflexivity.
  - destruct (Nat.eq_dec a (S b)) as [->|Hne]; [reflexivity|].
    rewrite rel_upto_S by exact Hb.
    destruct (relevant_b p (nth b log dentry)) eqn:Hr.
    + enough (S b <= a) by lia. apply Hg; [|apply le_n]. apply relo_S. split; [lia|exact Hr].
    + rewrite app_nil_r. apply IH; try lia. apply (gap_mono p log a a (S b) b); auto.
Qed.

(* a follower that has everything up to offset d is handed the offsets in q one after the other, each taking it to
   the later of the two ([callback]), and must then have everything up to m: every offset is in the log and no move
   jumps over an entry of partition p *)
Fixpoint qok (p:nat) (log:list entry) (d:nat) (q:list nat) (m:nat) : Prop :=
  match q with
  | [] => gap p log d m
  | h :: t => h <= length log /\ gap p log d (h - 1) /\ qok p log (Nat.max d h) t m
  end.

Lemma qok_app p log z m m' q : forall d, qok p log d q m ->
  (forall d', gap p log d' m -> qok p log d' z m') -> qok p log d (q ++ z) m'.
Proof.
  induction q as [|h t IH]; intros d H Hz; cbn in *; [apply Hz, H|].
  destruct H as (H0 & H1 & H2). split; [exact H0|]. split; [exact H1|]. apply IH; assumption.
Qed.

Lemma qok_gap p log m m' q : (forall d, gap p log d m -> gap p log d m') ->
  forall d, qok p log d q m -> qok p log d q m'.
Proof. intros Hm d H. rewrite <- (app_nil_r q). apply (qok_app p log [] m m' q d H Hm). Qed.

(* [lread_one]'s two ways of extending a queue *)
Lemma qok_snoc_if p log (c:bool) h m m' q :
  (c = true -> h <= length log /\ h - 1 <= m /\ m' <= Nat.max m h) ->
  (c = false -> forall d, gap p log d m -> gap p log d m') ->
  forall d, qok p log d q m -> qok p log d (if c then q ++ [h] else q) m'.
Proof.
  intros Ht Hf d H. destruct c; [|apply (qok_gap p log m m' q (Hf eq_refl) d H)].
  destruct (Ht eq_refl) as (Hl & Hh & Hm). apply (qok_app p log [h] m m' q d H).
  intros d' Hd. split; [exact Hl|]. split.
  - apply (gap_mono p log d' d' m); auto.
  - apply (gap_mono p log _ _ _ _ (le_n _) Hm). apply gap_max, Hd.
Qed.

Lemma qok_log_app p log e m q : m <= length log -> forall d, qok p log d q m -> qok p (log ++ [e]) d q m.
Proof.
  intros Hm. induction q as [|h t IH]; intros d H; cbn [qok] in *; [apply gap_log_app; assumption|].
  destruct H as (H0 & H1 & H2). rewrite app_length. split; [lia|]. split; [apply gap_log_app; [lia|exact H1]|apply IH, H2].
Qed.

(* (A) the follower's own state is consistent with the log.  f_moff and f_deliv are two variables of the code
   (memstore.offsetsBySource, doFollowLeaders' offsets) that move together.  The clause on f_earliest is the one
   step_ok protects at Start: earliest_guard_needed shows what is lost without it. *)
Definition finv (log:list entry) (fo:fol) : Prop :=
  f_file fo = rel_upto (f_part fo) log (f_foff fo) /\
  f_file fo ++ f_mem fo = rel_upto (f_part fo) log (f_moff fo) /\
  f_foff fo <= f_moff fo /\
  f_moff fo = f_deliv fo /\
  f_deliv fo <= length log /\
  (f_up fo = true -> f_earliest fo <= f_deliv fo) /\
  (forall fl k, In (fl, k) (f_snaps fo) -> fl = rel_upto (f_part fo) log k /\ k <= length log).

(* (B) the leader's view of a live (joined, not failed) follower: the follower process is up, and delivering the
   queue in order takes it, without jumping over an entry of its partition, to the spec and to the reader's cursor,
   whichever is later (the queue need not be sorted: the reader may restart behind the spec and resubmit extras;
   what lies between the cursor and a later spec was handed over before the reader restarted) *)
Definition linv (log:list entry) (cur:nat) (fo:fol) (l:lfol) : Prop :=
  l_joined l = true -> l_failed l = false ->
  f_up fo = true /\
  l_spec l <= length log /\
  qok (f_part fo) log (f_deliv fo) (l_queue l) (Nat.max (l_spec l) cur).

Definition pinv log cur fo l : Prop := finv log fo /\ linv log cur fo l.

Definition invc (log:list entry) (cur:nat) (lf:list lfol) (fols:list fol) : Prop :=
  length lf = length fols /\
  cur <= length log /\
  forall i, i < length fols -> pinv log cur (nth i fols dfol) (nth i lf dlfol).

Definition inv (s:sys) : Prop := invc (s_log s) (s_cursor s) (s_lf s) (s_fols s).

Lemma linv_not_joined log cur fo l : l_joined l = false -> linv log cur fo l.
Proof. intros H Hj; congruence. Qed.

Lemma linv_failed log cur fo l : l_failed l = true -> linv log cur fo l.
Proof. intros H _ Hf; congruence. Qed.

(* (B) looks at three fields of the follower, and only while it is up *)
Lemma linv_same log cur fo fo' l :
  (f_up fo = true -> f_part fo' = f_part fo /\ f_up fo' = true /\ f_deliv fo' = f_deliv fo) ->
  linv log cur fo l -> linv log cur fo' l.
Proof.
  intros Hs H Hj Hf. destruct (H Hj Hf) as (H1 & H2). destruct (Hs H1) as (-> & -> & ->). auto.
Qed.

Lemma linv_cursor log cur cur' fo l :
  (l_joined l = true -> cur' <= Nat.max (l_spec l) cur) -> linv log cur fo l -> linv log cur' fo l.
Proof.
  intros Hc H Hj Hf. destruct (H Hj Hf) as (H1 & H2 & H3). specialize (Hc Hj).
  repeat split; auto. revert H3. apply qok_gap. intros d. apply gap_mono; lia.
Qed.

(* [invc] is pointwise: changing follower f and the leader's record of it needs (A) and (B) of the new pair only *)
Lemma invc_upd log cur lf fols f fo' l' :
  invc log cur lf fols ->
  (pinv log cur (nth f fols dfol) (nth f lf dlfol) -> pinv log cur fo' l') ->
  invc log cur (upd lf f l') (upd fols f fo').
Proof.
  intros (Hlen & Hcur & Hall) Hp. split; [|split]; auto.
  - rewrite !length_upd; exact Hlen.
  - intros i Hi. rewrite length_upd in Hi.
    destruct (Nat.eq_dec f i) as [->|Hne].
    + rewrite !nth_upd_same by lia. auto.
    + rewrite !nth_upd_other by exact Hne. auto.
Qed.

(* a step on the follower's side: (A) is re-established by the operation's own lemma; (B) still holds if the
   follower was down (the leader has no live record of it) or is up as before with the same partition and offset *)
Lemma invc_fol log cur lf fols f fo' : let fo := nth f fols dfol in
  invc log cur lf fols -> (finv log fo -> finv log fo') ->
  (f_up fo = true -> f_part fo' = f_part fo /\ f_up fo' = true /\ f_deliv fo' = f_deliv fo) ->
  invc log cur lf (upd fols f fo').
Proof.
  intros fo H Ha Hs. rewrite <- (upd_nth_id lf f dlfol). apply invc_upd; [exact H|].
  intros [HA Hl]. split; [apply Ha, HA|]. revert Hl. apply linv_same, Hs.
Qed.

Lemma invc_upd_l log cur lf fols f l' :
  invc log cur lf fols ->
  (pinv log cur (nth f fols dfol) (nth f lf dlfol) -> pinv log cur (nth f fols dfol) l') ->
  invc log cur (upd lf f l') fols.
Proof. intros H Hp. rewrite <- (upd_nth_id fols f dfol). apply invc_upd; assumption. Qed.

Lemma finv_log_app log e fo : finv log fo -> finv (log ++ [e]) fo.
Proof.
  intros (H1 & H2 & H3 & H4 & H5 & H6 & H7). unfold finv. rewrite last_length.
  rewrite !rel_upto_app by lia.
  split; [exact H1|]. split; [exact H2|]. split; [exact H3|]. split; [exact H4|]. split; [apply le_S, H5|]. split; [exact H6|].
  intros fl k Hin. destruct (H7 fl k Hin) as [Ha Hb]. rewrite rel_upto_app by exact Hb. split; [exact Ha|apply le_S, Hb].
Qed.

Lemma linv_log_app log e cur fo l : cur <= length log -> linv log cur fo l -> linv (log ++ [e]) cur fo l.
Proof.
  intros Hcur H Hj Hf. destruct (H Hj Hf) as (H1 & H2 & H3).
  split; [exact H1|]. split; [rewrite app_length; lia|]. apply qok_log_app; [lia|exact H3].
Qed.

Lemma invc_log_app log e cur lf fols : invc log cur lf fols -> invc (log ++ [e]) cur lf fols.
Proof.
  intros (Hlen & Hcur & Hall). split; [exact Hlen|]. split; [rewrite app_length; lia|].
  intros i Hi. destruct (Hall i Hi) as [Ha Hb]. split.
  - apply finv_log_app; exact Ha.
  - apply linv_log_app; assumption.
Qed.

Lemma length_lread_all e off fs extra ls : length (lread_all e off fs extra ls) = length ls.
Proof.
  revert fs extra; induction ls as [|l ls IH]; intros [|f fs] extra; cbn; auto.
Qed.

Lemma nth_lread_all e off fs extra ls i : length ls = length fs -> i < length ls ->
  exists b, nth i (lread_all e off fs extra ls) dlfol = lread_one e off (f_part (nth i fs dfol)) b (nth i ls dlfol).
Proof.
  revert fs extra i; induction ls as [|l ls IH]; intros [|f fs] extra i Hlen Hi; cbn in *; try lia.
  destruct i as [|i].
  - eexists; reflexivity.
  - apply IH; lia.
Qed.

Lemma min_spec_le_c ls c : min_spec ls c <= c.
Proof.
  unfold min_spec. revert c; induction ls as [|l ls IH]; intros c; cbn; auto.
  destruct (l_joined l); [|apply IH].
  etransitivity; [apply IH|]. apply Nat.le_min_l.
Qed.

Lemma min_spec_le_spec ls c l : In l ls -> l_joined l = true -> min_spec ls c <= l_spec l.
Proof.
  unfold min_spec. revert c; induction ls as [|a ls IH]; intros c Hin Hj; cbn; [destruct Hin|].
  destruct Hin as [->|Hin]; [|apply IH; assumption].
  rewrite Hj. etransitivity; [apply (min_spec_le_c ls)|]. apply Nat.le_min_r.
Qed.

(* whether or not the spec moves to the entry's offset n (c), the later of spec and cursor is then max sp n *)
Lemma max_spec_lread (c:bool) sp n : Nat.max (if c && Nat.ltb sp n then n else sp) n = Nat.max sp n.
Proof. destruct c, (Nat.ltb_spec sp n); cbn [andb]; lia. Qed.

(* the reader processes the entry at offset S cur: it is queued if it is the follower's and after the spec, perhaps
   queued once more, and the later of spec and cursor moves from max sp cur to max sp (S cur) *)
Lemma linv_lread log cur fo b l : cur < length log ->
  linv log cur fo l -> linv log (S cur) fo (lread_one (nth cur log dentry) (S cur) (f_part fo) b l).
Proof.
  intros Hcur H. unfold lread_one. destruct (l_joined l) eqn:Hj; [|apply linv_not_joined; exact Hj].
  intros _ Hf. cbn [l_joined l_failed l_spec l_queue] in *. destruct (H Hj Hf) as (H1 & H2 & H3).
  rewrite Hf, !andb_true_r. split; [exact H1|]. split; [destruct (Nat.eqb _ _ && Nat.ltb _ _); lia|].
  rewrite max_spec_lread.
  (* the extra copy comes last and leaves the target where the include has put it *)
  apply (qok_snoc_if _ _ _ _ (Nat.max (l_spec l) (S cur))); [lia|auto|].
  (* the include; an entry that is not queued is not the follower's (E), or is not after the spec *)
  revert H3. apply qok_snoc_if; [lia|]. intros E d.
  destruct (Nat.ltb_spec (l_spec l) (S cur)) as [Hlt|Hge].
  - rewrite !Nat.max_r by lia. apply gap_S. rewrite andb_true_r in E. exact E.
  - rewrite !Nat.max_l by lia. auto.
Qed.

Ltac fol_simpl := cbn [f_part f_up f_link f_deliv f_mem f_moff f_file f_foff f_earliest f_snaps].

(* [callback] is unfolded with its [let] kept: the record under it mentions the intermediate follower ten times *)
Lemma f_part_callback log fo h : f_part (callback log fo h) = f_part fo.
Proof. cbv beta delta [callback]. destruct (Nat.ltb (f_deliv fo) h); reflexivity. Qed.

Lemma f_up_callback log fo h : f_up (callback log fo h) = f_up fo.
Proof. cbv beta delta [callback]. destruct (Nat.ltb (f_deliv fo) h); reflexivity. Qed.

Lemma f_deliv_callback log fo h : f_deliv (callback log fo h) = Nat.max (f_deliv fo) h.
Proof. cbv beta delta [callback]. destruct (Nat.ltb_spec (f_deliv fo) h); cbn; lia. Qed.

Lemma finv_callback log fo h : h <= length log -> gap (f_part fo) log (f_deliv fo) (h - 1) ->
  finv log fo -> finv log (callback log fo h).
Proof.
  intros Hh Hg (A1 & A2 & A3 & A4 & A5 & A6 & A7). cbv beta delta [callback].
  destruct (Nat.ltb_spec (f_deliv fo) h) as [Hlt|Hge]; fol_simpl; unfold finv; fol_simpl.
  - (* a new offset *)
    split; [exact A1|]. split; [|split; [lia|]; split; [reflexivity|]; split; [exact Hh|]; split; [auto|exact A7]].
    destruct h as [|h']; [lia|]. rewrite Nat.sub_succ, Nat.sub_0_r in *.
    rewrite rel_upto_S, (rel_upto_skip _ _ (f_deliv fo) h'), <- A4, <- A2 by (auto; lia).
    destruct (relevant_b (f_part fo) (nth h' log dentry)); [rewrite app_assoc|rewrite app_nil_r]; reflexivity.
  - (* a duplicate: dropped *)
    split; [exact A1|]. split; [exact A2|]. split; [exact A3|]. split; [exact A4|]. split; [exact A5|].
    split; [intros _; exact Hge|exact A7].
Qed.

(* one queued offset goes through the follower's callback *)
Lemma pinv_deliver log cur fo l h t : l_joined l = true -> l_failed l = false -> l_queue l = h :: t ->
  pinv log cur fo l ->
  pinv log cur (callback log fo h) {| l_joined := true; l_failed := false; l_spec := l_spec l; l_queue := t |}.
Proof.
  intros Hj Hf Hq [Ha Hl]. destruct (Hl Hj Hf) as (B1 & B2 & B3). rewrite Hq in B3. destruct B3 as (B3 & B4 & B5).
  split.
  - apply finv_callback; assumption.
  - intros _ _. cbn [l_joined l_failed l_spec l_queue].
    rewrite f_part_callback, f_up_callback, f_deliv_callback.
    split; [exact B1|]. split; [exact B2|exact B5].
Qed.

(* the process comes back, or is left, with the directory image (fl, k) *)
Lemma finv_reload log fo up ear fl k :
  finv log fo -> fl = rel_upto (f_part fo) log k -> k <= length log -> (up = true -> ear <= k) ->
  finv log {| f_part := f_part fo; f_up := up; f_link := f_link fo; f_deliv := k; f_mem := []; f_moff := k;
              f_file := fl; f_foff := k; f_earliest := ear; f_snaps := f_snaps fo |}.
Proof.
  intros (_ & _ & _ & _ & _ & _ & A7) Hfl Hk He. unfold finv; fol_simpl. rewrite app_nil_r.
  split; [exact Hfl|]. split; [exact Hfl|]. split; [lia|]. split; [reflexivity|]. split; [exact Hk|].
  split; [exact He|exact A7].
Qed.

Lemma finv_foff log fo : finv log fo -> f_foff fo <= length log.
Proof. intros (_ & _ & A3 & A4 & A5 & _). lia. Qed.

Lemma finv_down log fo : finv log fo -> finv log (down fo).
Proof.
  intros H. apply (finv_reload log fo false); [exact H|exact (proj1 H)|apply finv_foff, H|discriminate].
Qed.

Lemma finv_start log fo x : x <= f_foff fo -> finv log fo -> finv log (start fo x).
Proof.
  intros Hx H. apply (finv_reload log fo true); [exact H|exact (proj1 H)|apply finv_foff, H|intros _; exact Hx].
Qed.

Lemma finv_restore log fo k : finv log fo -> finv log (restore fo k).
Proof.
  intros H. unfold restore. destruct (nth_error (f_snaps fo) k) as [[fl n]|] eqn:E; [|exact H].
  apply nth_error_In in E. pose proof H as (_ & _ & _ & _ & _ & _ & A7). destruct (A7 fl n E) as [Hfl Hn].
  apply (finv_reload log fo false); [exact H|exact Hfl|exact Hn|discriminate].
Qed.

Lemma finv_flush log fo : finv log fo -> finv log (flush fo).
Proof.
  intros (A1 & A2 & A3 & A4 & A5 & A6 & A7). unfold flush, finv; fol_simpl. rewrite app_nil_r.
  split; [exact A2|]. split; [exact A2|]. split; [lia|]. split; [exact A4|].
  split; [exact A5|]. split; [exact A6|exact A7].
Qed.

Lemma finv_snap log fo : finv log fo -> finv log (snap fo).
Proof.
  intros (A1 & A2 & A3 & A4 & A5 & A6 & A7). unfold snap, finv; fol_simpl.
  split; [exact A1|]. split; [exact A2|]. split; [exact A3|]. split; [exact A4|].
  split; [exact A5|]. split; [exact A6|].
  intros fl k Hin. apply in_app_or in Hin. destruct Hin as [Hin|[Heq|[]]]; [apply A7; exact Hin|].
  injection Heq as <- <-. split; [exact A1|lia].
Qed.

Lemma finv_set_link log fo b : finv log fo -> finv log (set_link fo b).
Proof. intros H; exact H. Qed.

Lemma f_part_restore fo k : f_part (restore fo k) = f_part fo.
Proof. unfold restore. destruct (nth_error (f_snaps fo) k) as [[fl n]|]; reflexivity. Qed.

Lemma pinv_fail log cur fo l : finv log fo -> pinv log cur fo (fail_l l).
Proof. intros Ha. split; [exact Ha|]. apply linv_failed. reflexivity. Qed.

Lemma invc_reset log cur lf fols : invc log cur lf fols -> invc log 0 (map (fun _ => dlfol) lf) fols.
Proof.
  intros (Hlen & Hcur & Hall). split; [rewrite map_length; exact Hlen|]. split; [lia|].
  intros i Hi. rewrite nth_map_const. split; [apply (Hall i Hi)|apply linv_not_joined; reflexivity].
Qed.

Lemma invc_join log cur lf fols f c :
  invc log cur lf fols -> f < length fols -> f_up (nth f fols dfol) = true ->
  let fo := nth f fols dfol in
  let l := {| l_joined := true; l_failed := false; l_spec := Nat.max (f_deliv fo) (f_earliest fo); l_queue := [] |} in
  invc log (min_spec (upd lf f l) c) (upd lf f l) fols.
Proof.
  intros (Hlen & Hcur & Hall) Hf Hup fo l.
  assert (Hmin : forall i, i < length fols -> l_joined (nth i (upd lf f l) dlfol) = true ->
                 min_spec (upd lf f l) c <= l_spec (nth i (upd lf f l) dlfol)).
  { intros i Hi. apply min_spec_le_spec, nth_In. rewrite length_upd. congruence. }
  destruct (Hall f Hf) as [HA _]. fold fo in HA.
  assert (Hd : f_earliest fo <= f_deliv fo <= length log) by (split; apply HA; exact Hup).
  split; [rewrite length_upd; exact Hlen|]. split.
  { specialize (Hmin f Hf). rewrite nth_upd_same in Hmin by congruence. specialize (Hmin eq_refl). cbn in Hmin. lia. }
  intros i Hi. specialize (Hmin i Hi). destruct (Nat.eq_dec f i) as [<-|Hne].
  - rewrite nth_upd_same in * by congruence. split; [exact HA|]. intros _ _. fold fo. specialize (Hmin eq_refl). cbn in *.
    split; [exact Hup|]. split; [lia|]. apply gap_le. lia.
  - rewrite nth_upd_other in * by exact Hne. destruct (Hall i Hi) as [Ha Hb]. split; [exact Ha|].
    revert Hb. apply linv_cursor. intros Hj. etransitivity; [apply Hmin, Hj|apply Nat.le_max_l].
Qed.

Lemma step_inv s o : inv s -> step_ok s o = true -> inv (step s o).
Proof.
  (* [inv] stays folded while the guards are examined: unfolded, the goal holds four copies of the step *)
  destruct s as [log lup cur lf fols]. intros H Hok.
  assert (Hlen : length lf = length fols) by exact (proj1 H).
  destruct o as [p w|extra|f|f c|f|f|f|f x|f|f k|f|f| |];
    cbn [step set_fols set_lf mark_failed s_log s_lup s_cursor s_lf s_fols].
  - (* Ins *)
    destruct lup; [apply invc_log_app|]; exact H.
  - (* LRead *)
    destruct (lup && Nat.ltb cur (length log)) eqn:E; [|exact H].
    apply andb_prop in E. destruct E as [_ E]. apply Nat.ltb_lt in E.
    destruct H as (_ & Hcur & Hall). unfold inv. cbn [s_log s_lup s_cursor s_lf s_fols].
    split; [rewrite length_lread_all; exact Hlen|]. split; [lia|].
    intros i Hi.
    destruct (nth_lread_all (nth cur log dentry) (S cur) fols extra lf i Hlen ltac:(lia)) as [b Hb].
    rewrite Hb. destruct (Hall i Hi) as [Ha Hl]. split; [exact Ha|]. apply linv_lread; assumption.
  - (* Deliver *)
    destruct lup; [|exact H]. destruct (l_joined (nth f lf dlfol)) eqn:Hj; [|exact H].
    destruct (l_failed (nth f lf dlfol)) eqn:Hf; [exact H|]. destruct (Nat.ltb f (length fols)); [|exact H].
    destruct (l_queue (nth f lf dlfol)) as [|h t] eqn:Hq; [exact H|].
    destruct (f_up (nth f fols dfol) && f_link (nth f fols dfol)).
    + apply invc_upd; [exact H|]. apply pinv_deliver; assumption.
    + apply invc_upd_l; [exact H|]. intros [Ha _]. apply pinv_fail, Ha.
  - (* Join *)
    destruct lup; [|exact H]. destruct (f_up (nth f fols dfol)) eqn:Eup; [|exact H].
    destruct (Nat.ltb_spec f (length fols)) as [Ef|_]; [|exact H].
    apply (invc_join log cur); assumption.
  - (* Flush *)
    destruct (f_up (nth f fols dfol) && Nat.ltb f (length fols)); [|exact H].
    apply invc_fol; [exact H|apply finv_flush|auto].
  - (* Stop *)
    destruct (f_up (nth f fols dfol) && Nat.ltb f (length fols)); [|exact H].
    apply invc_upd; [exact H|]. intros [Ha _]. apply pinv_fail, finv_down, finv_flush, Ha.
  - (* Kill *)
    destruct (f_up (nth f fols dfol) && Nat.ltb f (length fols)); [|exact H].
    apply invc_upd; [exact H|]. intros [Ha _]. apply pinv_fail, finv_down, Ha.
  - (* Start *)
    cbn [step_ok s_fols] in Hok. apply Nat.leb_le in Hok.
    destruct (f_up (nth f fols dfol)) eqn:Eup; [exact H|]. destruct (Nat.ltb f (length fols)); [|exact H].
    apply invc_fol; [exact H|apply finv_start, Hok|congruence].
  - (* Snap *)
    destruct (Nat.ltb f (length fols)); [|exact H].
    apply invc_fol; [exact H|apply finv_snap|auto].
  - (* Restore *)
    destruct (f_up (nth f fols dfol)) eqn:Eup; [exact H|]. destruct (Nat.ltb f (length fols)); [|exact H].
    apply invc_fol; [exact H|apply finv_restore|congruence].
  - (* Cut *)
    destruct (Nat.ltb f (length fols)); [|exact H].
    apply invc_fol; [exact H|apply finv_set_link|auto].
  - (* Uncut *)
    destruct (Nat.ltb f (length fols)); [|exact H].
    apply invc_fol; [exact H|apply finv_set_link|auto].
  - (* LStop *) apply (invc_reset log cur), H.
  - (* LStart *) apply (invc_reset log cur), H.
Qed.

Lemma inv_init parts : inv (init parts).
Proof.
  unfold inv, init; cbn [s_log s_lup s_cursor s_lf s_fols].
  split; [rewrite !map_length; reflexivity|]. split; [cbn; lia|].
  intros i Hi. rewrite nth_map_const. split; [|apply linv_not_joined; reflexivity].
  assert (Hin : In (nth i (map init_fol parts) dfol) (map init_fol parts)) by (apply nth_In; exact Hi).
  apply in_map_iff in Hin. destruct Hin as [p [<- _]].
  unfold finv, init_fol; cbn. repeat split; auto; contradiction.
Qed.

Lemma run_cons s o ops : run s (o :: ops) = run (step s o) ops.
Proof. reflexivity. Qed.

Lemma run_inv ops : forall s, inv s -> run_ok s ops = true -> inv (run s ops).
Proof.
  induction ops as [|o ops IH]; intros s Hs Hok; [exact Hs|].
  rewrite run_cons. cbn [run_ok] in Hok.
  apply andb_prop in Hok. destruct Hok as [Ho Hok].
  apply IH; [apply step_inv; assumption|exact Hok].
Qed.

Lemma inv_reach parts ops : run_ok (init parts) ops = true -> inv (run (init parts) ops).
Proof. apply run_inv, inv_init. Qed.

Lemma run_app s a b : run s (a ++ b) = run (run s a) b.
Proof. unfold run. apply fold_left_app. Qed.

Lemma run_ok_app a : forall s b, run_ok s (a ++ b) = run_ok s a && run_ok (run s a) b.
Proof.
  induction a as [|o a IH]; intros s b; cbn; [reflexivity|].
  rewrite IH, andb_assoc. reflexivity.
Qed.

Lemma pinv_quiet_content log fo l : pinv log (length log) fo l -> quiet_l l = true ->
  content fo = relevant (f_part fo) log.
Proof.
  intros [(A1 & A2 & A3 & A4 & A5 & _) HB] Hl. unfold quiet_l in Hl.
  apply andb_prop in Hl as [Hl Hq]. apply andb_prop in Hl as [Hj Hf]. apply negb_true_iff in Hf.
  destruct (HB Hj Hf) as (_ & B2 & B3). destruct (l_queue l); [|discriminate]. cbn [qok] in B3.
  unfold content. rewrite A2, A4, <- rel_upto_all. symmetry. apply rel_upto_skip; [exact A5|apply le_n|].
  rewrite Nat.max_r in B3 by exact B2. exact B3.
Qed.

Lemma inv_quiescent_content s : inv s -> quiescent s = true ->
  forall i f, nth_error (s_fols s) i = Some f -> content f = relevant (f_part f) (s_log s).
Proof.
  unfold inv, quiescent. intros (Hlen & Hcur & Hall) Hq i f Hi.
  apply andb_prop in Hq as [Hq _]. apply andb_prop in Hq as [Hq Hql]. apply andb_prop in Hq as [_ Hc].
  apply Nat.eqb_eq in Hc. rewrite forallb_forall in Hql.
  assert (Hil : i < length (s_fols s)) by (apply nth_error_Some; congruence).
  apply (nth_error_nth _ _ dfol) in Hi. subst f. apply (pinv_quiet_content _ _ (nth i (s_lf s) dlfol)).
  - rewrite <- Hc. apply Hall, Hil.
  - apply Hql, nth_In. lia.
Qed.

Theorem follower_content : forall parts ops, run_ok (init parts) ops = true ->
  let s := run (init parts) ops in quiescent s = true ->
  forall i f, nth_error (s_fols s) i = Some f -> content f = relevant (f_part f) (s_log s).
Proof.
  intros parts ops Hok s Hq. apply inv_quiescent_content; [|exact Hq].
  apply inv_reach, Hok.
Qed.

Theorem exactly_once : forall parts ops, run_ok (init parts) ops = true ->
  let s := run (init parts) ops in quiescent s = true ->
  forall i f, nth_error (s_fols s) i = Some f ->
    NoDup (content f) /\
    (forall off, In off (content f) <->
       (1 <= off <= length (s_log s) /\ relevant_b (f_part f) (nth (off - 1) (s_log s) dentry) = true)).
Proof.
  intros parts ops Hok s Hq i f Hi.
  rewrite (follower_content parts ops Hok Hq i f Hi). split.
  - apply NoDup_rel_from.
  - intros off. apply In_relevant.
Qed.

Theorem redundant_converge : forall parts ops, run_ok (init parts) ops = true ->
  let s := run (init parts) ops in quiescent s = true ->
  forall i j f g, nth_error (s_fols s) i = Some f -> nth_error (s_fols s) j = Some g -> f_part f = f_part g ->
    content f = content g.
Proof.
  intros parts ops Hok s Hq i j f g Hi Hj Hp.
  rewrite (follower_content parts ops Hok Hq i f Hi), (follower_content parts ops Hok Hq j g Hj), Hp.
  reflexivity.
Qed.


Lemma step_parts s o : map f_part (s_fols (step s o)) = map f_part (s_fols s).
Proof.
  (* a step replaces at most one follower, by one of the same partition *)
  assert (U : forall f fo', f_part fo' = f_part (nth f (s_fols s) dfol) ->
              map f_part (upd (s_fols s) f fo') = map f_part (s_fols s)) by (intros f fo'; apply map_upd).
  destruct o as [p w|extra|f|f c|f|f|f|f x|f|f k|f|f| |]; cbn [step].
  - (* Ins *) destruct (s_lup s); reflexivity.
  - (* LRead *) destruct (_ && _); reflexivity.
  - (* Deliver *)
    destruct (_ && _); [|reflexivity]. destruct (l_queue _); [reflexivity|].
    destruct (_ && _); [apply U, f_part_callback|reflexivity].
  - (* Join *) destruct (_ && _); reflexivity.
  - (* Flush *) destruct (_ && _); [apply U|]; reflexivity.
  - (* Stop *) destruct (_ && _); [apply U|]; reflexivity.
  - (* Kill *) destruct (_ && _); [apply U|]; reflexivity.
  - (* Start *) destruct (_ && _); [apply U|]; reflexivity.
  - (* Snap *) destruct (Nat.ltb _ _); [apply U|]; reflexivity.
  - (* Restore *) destruct (_ && _); [apply U, f_part_restore|reflexivity].
  - (* Cut *) destruct (Nat.ltb _ _); [apply U|]; reflexivity.
  - (* Uncut *) destruct (Nat.ltb _ _); [apply U|]; reflexivity.
  - (* LStop *) reflexivity.
  - (* LStart *) reflexivity.
Qed.

Lemma run_parts ops : forall s, map f_part (s_fols (run s ops)) = map f_part (s_fols s).
Proof.
  induction ops as [|o ops IH]; intros s; [reflexivity|].
  rewrite run_cons, IH. apply step_parts.
Qed.

Theorem parts_stable : forall parts ops, map f_part (s_fols (run (init parts) ops)) = parts.
Proof.
  intros parts ops. rewrite run_parts. cbn. rewrite map_map. cbn. apply map_id.
Qed.

(* several leaders are independent copies of the system, and the invariant holds of each *)

Lemma mstep_inv ss m : Forall inv ss ->
  match m with
  | OnSource i o => step_ok (nth i ss dsys) o
  | OnFollower o => forallb (fun s => step_ok s o) ss
  end = true -> Forall inv (mstep ss m).
Proof.
  intros Hss Hok. destruct m as [i o|o]; cbn [mstep].
  - destruct (Nat.ltb_spec i (length ss)) as [Hi|Hi]; [|exact Hss].
    apply Forall_upd; [exact Hss|]. apply step_inv; [|exact Hok].
    rewrite Forall_forall in Hss. apply Hss. apply nth_In. exact Hi.
  - rewrite Forall_forall in *. rewrite forallb_forall in Hok.
    intros s' Hin. apply in_map_iff in Hin. destruct Hin as [s0 [<- Hin]].
    apply step_inv; [apply Hss|apply Hok]; exact Hin.
Qed.

Lemma mrun_inv ms : forall ss, Forall inv ss -> mrun_ok ss ms = true -> Forall inv (mrun ss ms).
Proof.
  induction ms as [|m ms IH]; intros ss Hss Hok; cbn in *; [exact Hss|].
  apply andb_prop in Hok. destruct Hok as [Hm Hok].
  apply IH; [apply mstep_inv; assumption|exact Hok].
Qed.

Theorem multi_source : forall nsrc parts ms, mrun_ok (minit nsrc parts) ms = true ->
  forall s, In s (mrun (minit nsrc parts) ms) -> quiescent s = true ->
  forall i f, nth_error (s_fols s) i = Some f -> content f = relevant (f_part f) (s_log s).
Proof.
  intros nsrc parts ms Hok s Hin Hq. apply inv_quiescent_content; [|exact Hq].
  assert (H : Forall inv (mrun (minit nsrc parts) ms)).
  { apply mrun_inv; [|exact Hok]. apply Forall_forall. intros s0 Hs0.
    apply repeat_spec in Hs0. subst s0. apply inv_init. }
  rewrite Forall_forall in H. apply H. exact Hin.
Qed.

(* The partitions together hold every entry that passes WHERE, once. *)

Fixpoint pass_from (l:list entry) (off:nat) : list nat :=
  match l with
  | [] => []
  | e :: t => if e_pass e then off :: pass_from t (S off) else pass_from t (S off)
  end.
(* offsets (1-based, ascending) of the entries with e_pass = true *)
Definition passing (log:list entry) : list nat := pass_from log 1.

(* each entry that passes goes to the one partition of the list that is its own *)
Lemma partitions_cover_from ps l : NoDup ps -> forall k, (forall e, In e l -> In (e_part e) ps) ->
  Permutation (concat (map (fun p => rel_from p l k) ps)) (pass_from l k).
Proof.
  intros Hnd. induction l as [|e l IH]; intros k Hp.
  - cbn [rel_from pass_from]. rewrite concat_map_nil. constructor.
  - specialize (IH (S k) (fun e' He' => Hp e' (or_intror He'))). cbn [pass_from].
    assert (Hother : forall p, (e_part e = p -> e_pass e = false) -> rel_from p (e :: l) k = rel_from p l (S k)).
    { intros p Hr. cbn [rel_from]. unfold relevant_b.
      destruct (Nat.eqb_spec (e_part e) p) as [E|]; [rewrite (Hr E)|]; reflexivity. }
    destruct (e_pass e) eqn:Hw.
    + destruct (in_split _ _ (Hp e (or_introl eq_refl))) as (ps1 & ps2 & ->).
      apply NoDup_remove_2 in Hnd.
      (* the other partitions of a duplicate-free list are not e's *)
      assert (Hrest : forall p, In p (ps1 ++ ps2) -> rel_from p (e :: l) k = rel_from p l (S k)).
      { intros p Hin. apply Hother. intros <-. destruct (Hnd Hin). }
      rewrite map_app, concat_app in *. cbn [map concat] in *.
      rewrite (map_ext_in _ (fun p => rel_from p l (S k)) ps1), (map_ext_in _ (fun p => rel_from p l (S k)) ps2)
        by (intros p Hin; apply Hrest, in_or_app; auto).
      cbn [rel_from]. unfold relevant_b at 1. rewrite Nat.eqb_refl, Hw. cbn [andb app].
      symmetry. apply Permutation_cons_app. symmetry. exact IH.
    + rewrite (map_ext _ (fun p => rel_from p l (S k))); [exact IH|]. intros p. apply Hother. reflexivity.
Qed.

Theorem partitions_cover : forall P log, (forall e, In e log -> e_part e < P) ->
  Permutation (concat (map (fun p => relevant p log) (seq 0 P))) (passing log).
Proof.
  intros P log H. apply partitions_cover_from; [apply seq_NoDup|].
  intros e He. apply in_seq. specialize (H e He). lia.
Qed.

(* settle is a run of operations that need no precondition *)

Definition benign (o:op) : bool := match o with Start _ _ => false | _ => true end.

Lemma run_ok_benign ops : forallb benign ops = true -> forall s, run_ok s ops = true.
Proof.
  induction ops as [|o ops IH]; intros H s; cbn in *; [reflexivity|].
  apply andb_prop in H. destruct H as [Ho H]. rewrite (IH H).
  destruct o; try discriminate; reflexivity.
Qed.

Lemma benign_joins fs : forall ls i, forallb benign (joins fs ls i) = true.
Proof.
  induction fs as [|f fs IH]; intros [|l ls] i; cbn [joins]; try reflexivity.
  rewrite forallb_app, IH, andb_true_r.
  destruct (f_up f && f_link f && (negb (l_joined l) || l_failed l)); reflexivity.
Qed.

Lemma benign_repeat o n : benign o = true -> forallb benign (repeat o n) = true.
Proof. intros H; induction n as [|n IH]; cbn; [reflexivity|]. rewrite H, IH. reflexivity. Qed.

Lemma benign_deliver_all ls : forall i, forallb benign (deliver_all ls i) = true.
Proof.
  induction ls as [|l ls IH]; intros i; cbn [deliver_all]; [reflexivity|].
  rewrite forallb_app, IH, benign_repeat; reflexivity.
Qed.

Definition settle_ops (s:sys) : list op :=
  let o1 := joins (s_fols s) (s_lf s) 0 in
  let s1 := run s o1 in
  let o2 := repeat (LRead []) (length (s_log s1) - s_cursor s1) in
  let s2 := run s1 o2 in
  o1 ++ o2 ++ deliver_all (s_lf s2) 0.

Lemma settle_run s : settle s = run s (settle_ops s).
Proof. unfold settle, settle_ops. cbv zeta. rewrite !run_app. reflexivity. Qed.

Lemma settle_ops_ok s : forall s', run_ok s' (settle_ops s) = true.
Proof.
  apply run_ok_benign. unfold settle_ops. cbv zeta.
  rewrite !forallb_app, benign_joins, benign_repeat, benign_deliver_all; reflexivity.
Qed.

Lemma settle_is_run : forall s, exists ops, settle s = run s ops /\ forall s', run_ok s' ops = true.
Proof. intros s. exists (settle_ops s). split; [apply settle_run|apply settle_ops_ok]. Qed.

Lemma settle_inv s : inv s -> inv (settle s).
Proof. intros H. rewrite settle_run. apply run_inv; [exact H|apply settle_ops_ok]. Qed.

(* the main theorem applies to settled states *)
Corollary follower_content_settled : forall parts ops, run_ok (init parts) ops = true ->
  let s := settle (run (init parts) ops) in quiescent s = true ->
  forall i f, nth_error (s_fols s) i = Some f -> content f = relevant (f_part f) (s_log s).
Proof.
  intros parts ops Hok s Hq. apply inv_quiescent_content; [|exact Hq].
  apply settle_inv, inv_reach, Hok.
Qed.

(* Without step_ok: the follower is killed with entry 1 in its memstore only and restarts announcing EarliestOffset 1,
   though it has persisted nothing; it joins with spec 1, the leader does not send entry 1 again, and all is quiet. *)
Theorem earliest_guard_needed : exists parts ops,
  let s := run (init parts) ops in quiescent s = true /\
  exists f, nth_error (s_fols s) 0 = Some f /\ content f <> relevant (f_part f) (s_log s).
Proof.
  exists [0], [Join 0 0; Ins 0 true; LRead []; Deliver 0; Kill 0; Start 0 1; Join 0 0; LRead []].
  cbv zeta. split; [vm_compute; reflexivity|].
  eexists. split; [vm_compute; reflexivity|]. vm_compute. discriminate.
Qed.

Definition nonvacuous_ops : list op :=
  [Join 0 0; Join 1 5; Ins 0 true; Ins 1 true; Ins 0 true; Ins 0 false;  (* two followers; four entries, the last fails WHERE *)
   LRead [false; true]; LRead [];                          (* entry 1 is also submitted to follower 1, whose it is not *)
   Deliver 0; Flush 0; Snap 0;                             (* follower 0 persists entry 1, and its directory is copied *)
   Ins 0 true; LRead []; LRead [true]; Deliver 0; Deliver 0; Kill 0;  (* entry 3 and the failing entry 4 reach follower 0, which dies unflushed *)
   Restore 0 0; Start 0 0;                                 (* and restarts on the copy *)
   Cut 1; Ins 1 true; LRead []; LRead []; Deliver 1;       (* a delivery over a cut link: the leader gives follower 1 up *)
   LStop; LStart; Ins 0 true; Ins 1 true; Uncut 1].        (* the leader restarts without its followers; settle lets them join again *)

Example nonvacuous : exists parts ops, run_ok (init parts) ops = true /\
  let s := settle (run (init parts) ops) in quiescent s = true /\
  exists f, nth_error (s_fols s) 0 = Some f /\ 3 <= length (content f).
Proof.
  exists [0; 1], nonvacuous_ops. split; [vm_compute; reflexivity|].
  cbv zeta. split; [vm_compute; reflexivity|].
  eexists. split; [vm_compute; reflexivity|]. vm_compute. repeat constructor.
Qed.

Definition goodl (l:lfol) : Prop := l_joined l = true /\ l_failed l = false.

(* the three operations of [settle] where they are enabled, on a state written out *)

Lemma step_join_eq log cur lf fols i c : i < length fols -> f_up (nth i fols dfol) = true ->
  step (Build_sys log true cur lf fols) (Join i c) =
  let fo := nth i fols dfol in
  let ls := upd lf i {| l_joined := true; l_failed := false; l_spec := Nat.max (f_deliv fo) (f_earliest fo); l_queue := [] |} in
  Build_sys log true (min_spec ls c) ls fols.
Proof.
  intros Hi Hf. apply Nat.ltb_lt in Hi. unfold step. cbn [s_lup s_fols andb]. rewrite Hf, Hi. reflexivity.
Qed.

Lemma step_lread_eq log cur lf fols extra : cur < length log ->
  step (Build_sys log true cur lf fols) (LRead extra) =
  Build_sys log true (S cur) (lread_all (nth cur log dentry) (S cur) fols extra lf) fols.
Proof. intros Hc. apply Nat.ltb_lt in Hc. unfold step. cbn [s_lup s_log s_cursor andb]. rewrite Hc. reflexivity. Qed.

Lemma step_deliver_eq log cur lf fols i sp h t :
  nth i lf dlfol = {| l_joined := true; l_failed := false; l_spec := sp; l_queue := h :: t |} ->
  i < length fols -> quiet_f (nth i fols dfol) = true ->
  step (Build_sys log true cur lf fols) (Deliver i) =
  Build_sys log true cur (upd lf i {| l_joined := true; l_failed := false; l_spec := sp; l_queue := t |})
            (upd fols i (callback log (nth i fols dfol) h)).
Proof.
  intros Hl Hi Hq. apply Nat.ltb_lt in Hi. unfold quiet_f in Hq. unfold step. cbn [s_lup s_lf s_fols].
  rewrite Hl. cbn [l_joined l_failed l_spec l_queue andb negb]. rewrite Hi, Hq. reflexivity.
Qed.

Lemma quiet_f_callback log fo h : quiet_f (callback log fo h) = quiet_f fo.
Proof. cbv beta delta [callback quiet_f]. destruct (Nat.ltb (f_deliv fo) h); reflexivity. Qed.

(* Each phase is one equation between states.  The follower lists are split at the follower whose turn it is:
   the operations generated for it change the pair at that index only. *)

(* phase 1: every follower that is not (or no longer) served joins; the reader does not move forward *)
Lemma joins_phase log : forall fs ls pf pl cur,
  length pf = length pl -> length fs = length ls -> forallb quiet_f fs = true ->
  exists cur' ls',
    run (Build_sys log true cur (pl ++ ls) (pf ++ fs)) (joins fs ls (length pf)) =
    Build_sys log true cur' (pl ++ ls') (pf ++ fs) /\
    cur' <= cur /\ length ls' = length ls /\ Forall goodl ls'.
Proof.
  induction fs as [|f ft IH]; intros [|l lt] pf pl cur Hlen Hlen2 Hq; try discriminate.
  - exists cur, []. auto.
  - cbn [joins forallb] in *. apply andb_prop in Hq. destruct Hq as [Hf Hq].
    unfold quiet_f in Hf. rewrite Hf, run_app. cbn [andb]. apply andb_prop in Hf. destruct Hf as [Hup _].
    (* the optional Join leaves a good record at this index *)
    assert (H1 : exists cur1 l1,
      run (Build_sys log true cur (pl ++ l :: lt) (pf ++ f :: ft))
          (if negb (l_joined l) || l_failed l then [Join (length pf) 0] else []) =
      Build_sys log true cur1 (pl ++ l1 :: lt) (pf ++ f :: ft) /\ cur1 <= cur /\ goodl l1).
    { destruct (negb (l_joined l) || l_failed l) eqn:Ec.
      - eexists _, _. split.
        + rewrite run_cons, step_join_eq; rewrite ?nth_middle; [|rewrite app_length; cbn; lia|exact Hup].
          cbv zeta. rewrite Hlen, upd_app_mid. reflexivity.
        + split; [|split; reflexivity]. apply Nat.le_trans with 0; [apply min_spec_le_c|lia].
      - exists cur, l. apply orb_false_elim in Ec. destruct Ec as [Ej Efl]. apply negb_false_iff in Ej.
        repeat split; auto. }
    destruct H1 as (cur1 & l1 & -> & Hc1 & Hg1).
    destruct (IH lt (pf ++ [f]) (pl ++ [l1]) cur1) as (cur' & ls' & E & Hc & Hl' & Hg);
      [rewrite !app_length, Hlen; reflexivity|apply eq_add_S, Hlen2|exact Hq|].
    rewrite app_length, Nat.add_1_r, <- !app_assoc in E.
    exists cur', (l1 :: ls'). split; [exact E|]. split; [exact (Nat.le_trans _ _ _ Hc Hc1)|].
    split; [cbn [length]; rewrite Hl'; reflexivity|]. constructor; assumption.
Qed.

(* phase 2: the reader consumes the rest of the WAL *)
Lemma goodl_lread_all e off : forall ls fs extra, Forall goodl ls -> Forall goodl (lread_all e off fs extra ls).
Proof.
  induction ls as [|l ls IH]; intros [|f fs] extra H; cbn [lread_all]; auto.
  apply Forall_cons_iff in H. destruct H as [[Hj Hfl] Hls]. constructor; [|apply IH; exact Hls].
  unfold lread_one. rewrite Hj. split; [reflexivity|exact Hfl].
Qed.

Lemma lreads_phase log fols : forall n cur lf, cur + n <= length log -> Forall goodl lf ->
  exists lf', run (Build_sys log true cur lf fols) (repeat (LRead []) n) = Build_sys log true (cur + n) lf' fols /\
              length lf' = length lf /\ Forall goodl lf'.
Proof.
  induction n as [|n IH]; intros cur lf Hc Hg.
  - exists lf. rewrite Nat.add_0_r. auto.
  - cbn [repeat]. rewrite run_cons, step_lread_eq, <- Nat.add_succ_comm by lia.
    destruct (IH (S cur) (lread_all (nth cur log dentry) (S cur) fols [] lf)) as (lf' & E & Hl & Hg');
      [lia|apply goodl_lread_all, Hg|].
    exists lf'. rewrite length_lread_all in Hl. auto.
Qed.

(* phase 3: the queues are drained, one follower after the other *)
Lemma delivers_phase log cur pf pl ft lt sp : length pf = length pl -> forall q f, quiet_f f = true ->
  exists f',
    run (Build_sys log true cur (pl ++ {| l_joined := true; l_failed := false; l_spec := sp; l_queue := q |} :: lt) (pf ++ f :: ft))
        (repeat (Deliver (length pl)) (length q)) =
    Build_sys log true cur (pl ++ {| l_joined := true; l_failed := false; l_spec := sp; l_queue := [] |} :: lt) (pf ++ f' :: ft) /\
    quiet_f f' = true.
Proof.
  intros Hlen. induction q as [|h t IH]; intros f Hf.
  - exists f. auto.
  - assert (Hn : nth (length pl) (pf ++ f :: ft) dfol = f) by (rewrite <- Hlen; apply nth_middle).
    cbn [length repeat]. rewrite run_cons, (step_deliver_eq _ _ _ _ _ sp h t), Hn;
      [|apply nth_middle|rewrite app_length, Hlen; cbn; lia|rewrite Hn; exact Hf].
    rewrite upd_app_mid, <- Hlen, upd_app_mid, Hlen. apply IH. rewrite quiet_f_callback. exact Hf.
Qed.

Lemma deliver_all_phase log cur : forall ls fs pf pl,
  length pf = length pl -> length fs = length ls -> forallb quiet_f fs = true -> Forall goodl ls ->
  exists ls' fs',
    run (Build_sys log true cur (pl ++ ls) (pf ++ fs)) (deliver_all ls (length pl)) =
    Build_sys log true cur (pl ++ ls') (pf ++ fs') /\
    forallb quiet_l ls' = true /\ forallb quiet_f fs' = true.
Proof.
  induction ls as [|l lt IH]; intros [|f ft] pf pl Hlen Hlen2 Hq Hg; try discriminate.
  - exists [], []. auto.
  - cbn [deliver_all forallb] in *. apply andb_prop in Hq. destruct Hq as [Hf Hq].
    apply Forall_cons_iff in Hg. destruct Hg as [[Hj Hfl] Hg].
    destruct l as [j fl sp q]. cbn [l_joined l_failed l_queue] in *. subst j fl.
    rewrite run_app. destruct (delivers_phase log cur pf pl ft lt sp Hlen q f Hf) as (f' & -> & Hf').
    destruct (IH ft (pf ++ [f']) (pl ++ [{| l_joined := true; l_failed := false; l_spec := sp; l_queue := [] |}]))
      as (ls' & fs' & E & Hl' & Hq'); [rewrite !app_length, Hlen; reflexivity|apply eq_add_S, Hlen2|exact Hq|exact Hg|].
    rewrite app_length, Nat.add_1_r, <- !app_assoc in E.
    exists ({| l_joined := true; l_failed := false; l_spec := sp; l_queue := [] |} :: ls'), (f' :: fs').
    cbn [forallb]. rewrite Hl', Hq', Hf'. split; [exact E|]. split; reflexivity.
Qed.

Lemma settle_quiescent_inv s : inv s -> s_lup s = true -> forallb quiet_f (s_fols s) = true ->
  quiescent (settle s) = true.
Proof.
  destruct s as [log lup cur lf fols]. intros (Hlen & Hcur & _) Hup Hq.
  cbn [s_log s_lup s_cursor s_lf s_fols] in *. subst lup. unfold settle. cbv zeta. cbn [s_lf s_fols].
  destruct (joins_phase log fols lf [] [] cur) as (cur1 & lf1 & E1 & Hc1 & Hl1 & Hg1); auto.
  cbn [app length] in E1. rewrite E1. cbn [s_log s_cursor s_lf].
  destruct (lreads_phase log fols (length log - cur1) cur1 lf1) as (lf2 & -> & Hl2 & Hg2); [lia|exact Hg1|].
  cbn [s_lf]. replace (cur1 + (length log - cur1)) with (length log) by lia.
  destruct (deliver_all_phase log (length log) lf2 fols [] []) as (lf3 & fols3 & E3 & Hq3 & Hf3);
    [reflexivity|congruence|exact Hq|exact Hg2|].
  cbn [app length] in E3. rewrite E3. unfold quiescent. cbn [s_log s_lup s_cursor s_lf s_fols].
  rewrite Hq3, Hf3, Nat.eqb_refl. reflexivity.
Qed.

Theorem settle_quiescent : forall parts ops, run_ok (init parts) ops = true ->
  let s := run (init parts) ops in
  s_lup s = true -> forallb quiet_f (s_fols s) = true -> quiescent (settle s) = true.
Proof.
  intros parts ops Hok s Hup Hq. apply settle_quiescent_inv; auto.
  apply inv_reach, Hok.
Qed.

Print Assumptions follower_content.
Print Assumptions exactly_once.
Print Assumptions redundant_converge.
Print Assumptions partitions_cover.
Print Assumptions parts_stable.
Print Assumptions multi_source.
Print Assumptions earliest_guard_needed.
Print Assumptions nonvacuous.
Print Assumptions settle_is_run.
Print Assumptions follower_content_settled.
Print Assumptions settle_quiescent.
