(* AlterP.v — ALTER TABLE (Model/Alter.v, C15): what alter_fields, pts_since and the list of accepted points
   of astep do.  Alter.alter_rows, the rows a query returns after alterations, has no general theorem: the
   correspondence cases (alt_case_ok) tie it to the code, and C15_nonvacuous evaluates it on one history. *)
From Zeno Require Import Base DB Alter.

(* accepted points are never lost by an alteration, a flush or a restart *)
Lemma astep_acc_extends : forall s o, exists l, a_acc (astep s o) = a_acc s ++ l.
Proof.
  intros s o. assert (same : exists l, a_acc s = a_acc s ++ l) by (exists []; symmetry; apply app_nil_r).
  destruct o as [p|fs w| |]; cbn [astep]; [|exact same..].
  destruct (flag (a_where s) p); [exists [p]; reflexivity|exact same].
Qed.

(* a field that keeps its name and expression keeps the point from which it aggregates *)
Lemma alter_keeps_since : forall old now new n e f,
  In (n, e) new -> find (same_field n e) old = Some f ->
  In {| af_name := n; af_expr := e; af_since := af_since f |} (alter_fields old now new).
Proof.
  intros old now new n e f Hin Hf. unfold alter_fields. apply in_map_iff. exists (n, e). cbn [fst snd]. rewrite Hf. auto.
Qed.

(* a field that is new (no field of that name and expression in the previous definition) starts empty:
   it aggregates only points accepted from now on *)
Lemma alter_new_since : forall old now new n e,
  In (n, e) new -> find (same_field n e) old = None ->
  In {| af_name := n; af_expr := e; af_since := now |} (alter_fields old now new).
Proof.
  intros old now new n e Hin Hf. unfold alter_fields. apply in_map_iff. exists (n, e). cbn [fst snd]. rewrite Hf. auto.
Qed.

(* the new definition has exactly the new fields, in the new order *)
Lemma alter_fields_names : forall old now new, map (fun f => (af_name f, af_expr f)) (alter_fields old now new) = new.
Proof.
  intros old now. unfold alter_fields. induction new as [|[n e] new IH]; [reflexivity|]. cbn [map fst snd]. rewrite IH.
  destruct (find (same_field n e) old); reflexivity.
Qed.

(* points contributing to a field: exactly those processed since it was added *)
Lemma pts_since_spec : forall n acc p, In p (pts_since n acc) <-> exists i, (n <= i)%nat /\ In (i, p) acc.
Proof.
  intros n acc p. unfold pts_since. rewrite in_map_iff. split.
  - intros [[i q] [E H]]. cbn in E. subst q. apply filter_In in H. destruct H as [H1 H2]. cbn in H2.
    apply Nat.leb_le in H2. exists i. split; assumption.
  - intros [i [Hi H]]. exists (i, p). split; [reflexivity|]. apply filter_In. split; [exact H|]. cbn. apply Nat.leb_le. exact Hi.
Qed.
Lemma pts_since_zero : forall acc, pts_since 0 acc = map snd acc.
Proof.
  intros acc. unfold pts_since. f_equal. induction acc as [|x acc IH]; [reflexivity|].
  cbn [filter]. cbn [Nat.leb]. f_equal. exact IH.
Qed.

(* a new WHERE judges only the points processed after the change *)
Lemma where_from_then_on : forall s fs w p,
  a_acc (astep (astep s (AAlter fs w)) (AIns p)) = if flag w p then a_acc s ++ [p] else a_acc s.
Proof. intros s fs w p. cbn [astep a_where a_acc]. destruct (flag w p); reflexivity. Qed.
