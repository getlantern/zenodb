(* AuthP.v — the access decisions of Model/Auth.v (C19): the RPC password check and the web session check accept on
   the grounds the code names and on no other; in the handler and route tables translated from the source on this
   run, whatever discloses data is guarded. *)
From Coq Require Import String.
From Zeno Require Import Base Auth Facts.
Local Open Scope string_scope.

Lemma authorize_refuses : forall pw presented, pw <> "" -> ~ In pw presented -> authorize pw presented = false.
Proof.
  intros pw presented Hne Hnot. unfold authorize.
  destruct (String.eqb_spec pw ""); [contradiction|].
  apply Bool.not_true_iff_false. intros H. apply existsb_exists in H. destruct H as [x [Hin Hx]].
  apply String.eqb_eq in Hx. subst. contradiction.
Qed.
Lemma authorize_accepts : forall pw presented, In pw presented -> authorize pw presented = true.
Proof.
  intros pw presented Hin. unfold authorize. destruct (String.eqb pw ""); [reflexivity|].
  apply existsb_exists. exists pw. split; [exact Hin|apply String.eqb_refl].
Qed.

(* with OAuth configured, a request is served only with the static token or an unexpired, verified session *)
Lemma authenticate_only_if : forall c header ck now, w_oauth c = true -> authenticate c header ck now = true ->
  (w_password c <> "" /\ header = w_password c)
  \/ (exists e, ck = CSession e InOrg /\ (now <= e)%Z).
Proof.
  intros c header ck now Ho H. unfold authenticate in H. rewrite Ho in H. cbn [negb] in H.
  destruct (negb (w_password c =? "") && negb (header =? "")) eqn:E.
  - left. apply andb_prop in E. destruct E as [E _]. apply Bool.negb_true_iff, String.eqb_neq in E.
    split; [exact E|apply String.eqb_eq; exact H].
  - right. destruct ck as [| |e [| |]]; try discriminate. exists e. split; [reflexivity|].
    destruct (Z.ltb_spec e now); [discriminate|assumption].
Qed.

(* an expired or forged cookie (without the static token) is never accepted *)
Lemma expired_or_forged_refused : forall c ck now, w_oauth c = true ->
  (ck = CAbsent \/ ck = CUndecodable \/ (exists e o, ck = CSession e o /\ (e < now)%Z)
   \/ (exists e, ck = CSession e NotInOrg) \/ (exists e, ck = CSession e OrgError)) ->
  authenticate c "" ck now = false.
Proof.
  intros c ck now Ho H. unfold authenticate. rewrite Ho. cbn [negb].
  rewrite (proj2 (String.eqb_eq "" "") eq_refl). cbn [negb]. rewrite Bool.andb_false_r.
  destruct H as [->|[->|[[e [o [-> He]]]|[[e ->]|[e ->]]]]]; try reflexivity.
  destruct o; try reflexivity. apply Z.ltb_lt in He. rewrite He. reflexivity.
Qed.

(* the guard tables translated from the source on this run satisfy: every disclosing handler is guarded *)
Lemma rpc_table_guarded : rpc_table_ok gen_rpc_handlers = true.
Proof. vm_compute. reflexivity. Qed.
Lemma web_table_guarded : web_table_ok gen_web_routes = true.
Proof. vm_compute. reflexivity. Qed.

Lemma guarded_in_table : forall {A} (needs guarded:A -> bool) t, forallb (fun x => implb (needs x) (guarded x)) t = true ->
  forall x, In x t -> needs x = true -> guarded x = true.
Proof. intros A needs guarded t T x Hin Hn. rewrite forallb_forall in T. specialize (T x Hin). rewrite Hn in T. exact T. Qed.

Lemma rpc_every_disclosing_handler_guarded : forall h, In h gen_rpc_handlers -> rpc_discloses h = true -> rpc_guarded h = true.
Proof. exact (guarded_in_table _ _ _ rpc_table_guarded). Qed.
Lemma web_every_data_route_guarded : forall r, In r gen_web_routes -> web_serves_data r = true -> web_guarded r = true.
Proof. exact (guarded_in_table _ _ _ web_table_guarded). Qed.

(* the tables are not vacuous: the disclosing handlers and data routes are present *)
Lemma tables_nonvacuous :
  map fst (filter rpc_discloses gen_rpc_handlers) = ["Query"; "Follow"; "HandleRemoteQueries"] /\
  map fst (filter web_serves_data gen_web_routes) = ["/async"; "/immediate"; "/run"; "/cached/{permalink}"].
Proof. vm_compute. auto. Qed.
