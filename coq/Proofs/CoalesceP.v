(* CoalesceP.v — every iteration served by a shared scan receives exactly what it receives alone (C17) *)
From Zeno Require Import Base ListP Coalesce.

Section P.
Variable V : Type.

Lemma deliver_not_running : forall (it:iter) (s:istate V) r, is_status V s <> Running -> deliver V it s r = s.
Proof. intros it s r H. unfold deliver. destruct (is_status V s); congruence. Qed.

Lemma fold_deliver_not_running : forall (it:iter) rows (s:istate V), is_status V s <> Running ->
  fold_left (deliver V it) rows s = s.
Proof.
  intros it. induction rows as [|r rows IH]; intros s H; cbn [fold_left]; auto.
  rewrite deliver_not_running by exact H. apply IH. exact H.
Qed.

Lemma any_running_false : forall (ss:list (istate V)), any_running V ss = false ->
  forall s, In s ss -> is_status V s <> Running.
Proof.
  intros ss H s Hin E. unfold any_running in H. rewrite <- Bool.not_true_iff_false in H. apply H.
  apply existsb_exists. exists s. rewrite E. auto.
Qed.

(* invariant: position-wise, the shared scan's state for iteration i is the solo fold over the rows so far *)
Lemma coscan_pointwise : forall (its:list iter) rows (ss:list (istate V)) i it s,
  nth_error its i = Some it -> nth_error ss i = Some s ->
  nth_error (coscan V its ss rows) i = Some (fold_left (deliver V it) rows s).
Proof.
  intros its. induction rows as [|r rows IH]; intros ss i it s Hit Hs; cbn [coscan]; [exact Hs|].
  destruct (any_running V ss) eqn:E.
  - apply IH; [exact Hit|]. unfold costep. rewrite nth_error_map, (nth_error_combine its ss i it s Hit Hs). reflexivity.
  - (* the scan has stopped: this iteration, like all others, takes no more rows *)
    rewrite Hs, fold_deliver_not_running; [reflexivity|]. apply (any_running_false ss E). eapply nth_error_In. exact Hs.
Qed.

Theorem coalesced_is_solo : forall (its:list iter) rows i it, nth_error its i = Some it ->
  nth_error (coalesced V its rows) i = Some (solo V it rows).
Proof.
  intros its rows i it Hit. unfold coalesced, solo. apply coscan_pointwise; [exact Hit|].
  rewrite nth_error_map, Hit. reflexivity.
Qed.
End P.
